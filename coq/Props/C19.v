(* C19 — advertised limits are honoured exactly.
   The reference AM takes the announced limits as parameters: a name up to p_name_max is well-formed,
   a WRITE of up to p_wtmax bytes ending at or below p_maxfilesize succeeds, a SETATTR size up to
   p_maxfilesize succeeds, and anything beyond is an error that changes nothing.  Theorems below are
   about AM (for all states and arguments, arithmetic on unbounded N so no wrap-around); the real
   server is compared with AM instantiated with the values it announces, at limit-1 / limit / limit+1. *)
From stdpp Require Import gmap list.
From Coq Require Import NArith.
From V Require Import Model.Lib Model.Afs Proofs.AfsLaws.
Open Scope N_scope.

(* beyond a limit: refused, and (C09) nothing changes *)
Theorem C19_write_beyond_wtmax_refused : forall P s h off cnt st d hi,
  p_wtmax P < cnt -> is_error (snd (step P s (CWrite h off cnt st d) hi)) /\ fst (step P s (CWrite h off cnt st d) hi) = s.
Proof.
  intros P s h off cnt st d hi H. simpl.
  destruct (write_cases P s h off cnt st d hi) as [(e & He & ->)|(i & o & n & _ & _ & _ & _ & Hw & _)]; [|lia].
  destruct e; simpl; tauto.
Qed.
Print Assumptions C19_write_beyond_wtmax_refused.

Theorem C19_write_beyond_maxfilesize_refused : forall P s h off cnt st d hi,
  p_maxfilesize P < off + cnt -> is_error (snd (step P s (CWrite h off cnt st d) hi)) /\ fst (step P s (CWrite h off cnt st d) hi) = s.
Proof.
  intros P s h off cnt st d hi H. simpl.
  destruct (write_cases P s h off cnt st d hi) as [(e & He & ->)|(i & o & n & _ & _ & _ & _ & _ & Hm & _)]; [|lia].
  destruct e; simpl; tauto.
Qed.
Print Assumptions C19_write_beyond_maxfilesize_refused.

Theorem C19_setattr_beyond_maxfilesize_refused : forall P s h sz a m hi,
  p_maxfilesize P < sz -> is_error (snd (step P s (CSetattr h (Some sz) a m) hi)) /\ fst (step P s (CSetattr h (Some sz) a m) hi) = s.
Proof.
  intros P s h sz a m hi H. simpl. unfold do_setattr.
  destruct (resolve P s h) as [[i o]|]; [|simpl; auto].
  destruct (negb (bool_decide (o_kind o = KFile))); [simpl; auto|].
  apply N.ltb_lt in H. rewrite H. simpl. auto.
Qed.
Print Assumptions C19_setattr_beyond_maxfilesize_refused.

(* up to a limit: accepted (given a live regular file, matching count, space) *)
Theorem C19_write_within_limits_accepted : forall P s h off cnt st d i o,
  resolve P s h = Some (i, o) -> o_kind o = KFile -> cnt = lenN d ->
  cnt <= p_wtmax P -> off + cnt <= p_maxfilesize P ->
  exists n c a, snd (step P s (CWrite h off cnt st d) HNone) = RWritten n c a /\ n = cnt.
Proof.
  intros P s h off cnt st d i o Hr Hk Hc Hw Hm. simpl. unfold do_write. rewrite Hr.
  rewrite bool_decide_eq_true_2 by exact Hk. simpl.
  subst cnt. rewrite N.eqb_refl. simpl.
  destruct (N.ltb_spec (p_wtmax P) (lenN d)); [lia|].
  destruct (N.ltb_spec (p_maxfilesize P) (off + lenN d)); [lia|].
  simpl. eauto.
Qed.
Print Assumptions C19_write_within_limits_accepted.

(* a name is acceptable exactly when it is non-empty, within name_max, without '/' and NUL, not a dot name *)
Theorem C19_name_limit : forall P n,
  wf_name P n = true -> 1 <= lenN n /\ lenN n <= p_name_max P.
Proof.
  intros P n H. unfold wf_name in H. rewrite !andb_true_iff in H. destruct H as [[[[H1 H2] _] _] _].
  apply negb_true_iff, N.eqb_neq in H1. apply N.leb_le in H2. lia.
Qed.
Print Assumptions C19_name_limit.
