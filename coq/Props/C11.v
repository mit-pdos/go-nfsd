(* C11 — no request can crash or wedge the server.
   What a theorem can carry here: the reference answers EVERY call, whatever its argument values
   (Afs.step and the SimpleNFS servers are total functions over unbounded numbers, so no argument value
   is outside their domain): handles that do not resolve (any length, any content) are refused without
   effect, sizes/offsets/counts beyond the limits are refused without wrap-around, the transliterated
   SimpleNFS server agrees with its specification for all offsets/counts/sizes below 2^64 and never
   allocates more than one block for SETATTR.  That the Go code neither panics, nor exhausts memory, nor
   blocks is observed, not proved: hostile argument values (handles of 0..65 bytes, inode numbers around
   the table size and up to 2^64-1, names of 0..300 bytes and the dot names, offsets/counts/sizes/cookies
   at every power-of-two and limit boundary, counts that disagree with the data, renames with coinciding
   inodes) are sent to the real server under a watchdog (20 s, 2000 aborted transactions per RPC) and
   the server must keep serving.  Memory safety and the Go runtime are outside the model: C11_partial. *)
From stdpp Require Import gmap list.
From Coq Require Import NArith List.
From V Require Import Model.Lib Model.Afs Proofs.AfsLaws.
From V Require Model.SimpleModel Proofs.SimpleProofs Model.Layout Proofs.LayoutProofs.
Open Scope N_scope.

Theorem C11_unresolvable_handle_refused : forall P s c hi h,
  h ∈ handles_of c -> resolve P s h = None ->
  is_error (snd (step P s c hi)) /\ fst (step P s c hi) = s.
Proof. exact stale_everywhere. Qed.
Print Assumptions C11_unresolvable_handle_refused.

(* a handle of the wrong length never resolves *)
Theorem C11_wrong_length_handle : forall P s h, lenN h <> 16 -> resolve P s h = None.
Proof.
  intros P s h H. unfold resolve, parse_handle. destruct (N.eqb_spec (lenN h) 16); [contradiction|reflexivity].
Qed.
Print Assumptions C11_wrong_length_handle.

(* an inode number outside the table never resolves *)
Theorem C11_out_of_range_inum : forall P s i g, p_ninode P <= i -> i < 2^64 -> g < 2^64 -> resolve P s (mk_handle i g) = None.
Proof.
  intros P s i g H Hi Hg. unfold resolve. change (mk_handle i g) with (Layout.encode_fh i g).
  rewrite (LayoutProofs.decode_encode_fh i g Hi Hg).
  destruct (N.ltb_spec i (p_ninode P)); [lia|reflexivity].
Qed.
Print Assumptions C11_out_of_range_inum.

Theorem C11_simple_total_and_correct : forall cs si ss, SimpleProofs.srep si ss -> Forall SimpleProofs.call_in_range cs ->
  snd (SimpleProofs.iruns si cs) = snd (SimpleProofs.sruns ss cs) /\ SimpleProofs.srep (fst (SimpleProofs.iruns si cs)) (fst (SimpleProofs.sruns ss cs)).
Proof. exact SimpleProofs.simple_refines_history. Qed.
Print Assumptions C11_simple_total_and_correct.

Theorem C11_simple_setattr_allocation_bounded : forall ip newsize, snd (SimpleModel.i_setsize ip newsize) <= SimpleModel.BS.
Proof. exact SimpleProofs.setsize_alloc_bounded. Qed.
