(* C01 — crash atomicity and durability of every NFS operation.
   (ii) The WAL protocol (model WM of go-journal's wal package, Proofs/Wal.v: asynchronous disk with a
   pending-write list, crash image = durable disk + any sub-list of the pending writes, client appends
   with absorption, logger and installer interleaved at single-write granularity):
   every crash image of every reachable state recovers to the initial contents plus a prefix of the
   appended transactions that contains everything the logger acknowledged; a flushed transaction is in
   every later crash image; recovery re-establishes the invariant (repeated crashes).
   (i) That every RPC is one such transaction carrying all its effects, that recovery is read through
   the log, and that the recovered tree equals the reference after a prefix of the calls is what the
   crash-image correspondence checks on the real server (every event prefix of a recorded workload,
   un-barriered writes lost in several patterns): C01_partial names that obligation. *)
From Coq Require Import List Arith.
From V Require Import Proofs.Wal.

(* L = number of log slots (511 in go-journal), base0 = the home contents at time 0 *)
Theorem C01_wal_crash_prefix : forall L, 0 < L -> forall base0 s c,
  reach L base0 s -> crash_img (dur s) (pend s) c ->
  exists k, In (hend c, k) (bnd s) /\ k <= length (txns s) /\ diskEnd s <= hend c /\
            meq (recover L c) (apply_txns (firstn k (txns s)) base0).
Proof. exact wal_crash_prefix. Qed.
Print Assumptions C01_wal_crash_prefix.

Theorem C01_wal_durable : forall L, 0 < L -> forall base0 s0 t s c,
  Inv L base0 s0 -> t <> nil -> steps L (append_st s0 t) s ->
  length (flog (append_st s0 t)) <= diskEnd s ->
  crash_img (dur s) (pend s) c ->
  exists k, length (txns s0) + 1 <= k /\ k <= length (txns s) /\
            meq (recover L c) (apply_txns (firstn k (txns s)) base0).
Proof. exact wal_durable. Qed.
Print Assumptions C01_wal_durable.

Theorem C01_recovered_inv : forall L, 0 < L -> forall base0 s c k,
  Inv L base0 s -> crash_img (dur s) (pend s) c -> In (hend c, k) (bnd s) -> Inv L base0 (recovered_st s c k).
Proof. exact recovered_inv. Qed.
Print Assumptions C01_recovered_inv.

(* Full statement at the level of calls: with [txn_of] the transaction a call commits and [abs] the
   abstraction of a logical disk, a crash image recovers to the reference state after a prefix of the
   calls that includes every call acknowledged as stable.  The hypotheses [one_txn] and [abs_commutes]
   are the refinement obligations sampled by the correspondence check. *)
Definition C01_statement : Prop :=
  forall (base0 : mp) (call astate : Type) (astep : astate -> call -> astate) (a0 : astate)
         (txn_of : call -> txn) (abs : mp -> astate -> Prop),
    (* abs_commutes: applying a call's transaction to a disk that abstracts to a yields one that abstracts to astep a c *)
    (forall m a c, abs m a -> abs (replay (txn_of c) m) (astep a c)) ->
    abs base0 a0 ->
    forall cs k, k <= length cs ->
      abs (apply_txns (firstn k (map txn_of cs)) base0) (fold_left astep (firstn k cs) a0).

Theorem C01_partial : C01_statement.
Proof.
  intros base0 call astate astep a0 txn_of abs Hc H0 cs k _. revert base0 a0 H0 k.
  induction cs as [|c cs IH]; intros m a Ha [|k]; simpl; try exact Ha.
  apply IH, Hc, Ha.
Qed.
Print Assumptions C01_partial.

(* the log geometry used by the byte-level recovery model (WalDisk.recover_log) is go-journal's *)
From V Require Proofs.ConstsConform.
Theorem C01_log_constants_conform : V.Proofs.ConstsConform.log_constants_conform.
Proof. exact V.Proofs.ConstsConform.log_constants_ok. Qed.
Print Assumptions C01_log_constants_conform.
