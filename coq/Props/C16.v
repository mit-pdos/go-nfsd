(* C16 — wire format and dispatch conform to RFC 1813.
   XM (Model/Xdr.v): one generic XDR encoder/decoder over a closed descriptor grammar.
   Proved for EVERY descriptor environment, type, value and fuel: decoding what was encoded returns the
   value and leaves the rest of the input untouched (so two values never share an encoding, and nothing
   is read past the end of the encoding).
   Gen/GenXdr.v is regenerated on every run from nfstypes/nfs_xdr.go (every Xdr method, the registration
   tables, the wrappers, both main.go files); Gen/GenRfc.v is regenerated from the RFC's prot.x.
   Decided by computation on these closed terms (finite, stated as such): every RFC type has the same
   descriptor in the repository's codec up to capitalisation; every RFC procedure number is registered
   exactly once with the wrapper/argument type/handler/result type of that procedure, nothing else is
   registered, and both servers register both tables.
   Tie of XM to the code: every value of every argument/result type that the harness generates is
   encoded by the Go codec, decoded by the extracted XM with the generated descriptors (must succeed,
   consume everything, and re-encode to the same bytes) and by the independent rfc1813 package; truncated
   and corrupted encodings must be rejected or decoded identically by Go and XM. *)
From Coq Require Import List NArith String.
From V Require Import Model.Lib Model.Xdr Model.XdrConform Proofs.XdrProofs Gen.GenXdr Gen.GenRfc.
Import ListNotations.

Theorem C16_decode_encode : forall (E : env) f t v bs rest,
  enc E f t v = Some bs -> dec E f t (bs ++ rest)%list = Some (v, rest).
Proof. exact decode_encode. Qed.
Print Assumptions C16_decode_encode.

Theorem C16_decode_encode_exact : forall (E : env) f t v bs,
  enc E f t v = Some bs -> dec E f t bs = Some (v, []).
Proof. exact decode_encode_exact. Qed.

(* injectivity: different values of a type never have the same encoding *)
Theorem C16_encoding_injective : forall (E : env) f t v1 v2 bs,
  enc E f t v1 = Some bs -> enc E f t v2 = Some bs -> v1 = v2.
Proof.
  intros E f t v1 v2 bs H1 H2. apply decode_encode_exact in H1, H2. congruence.
Qed.
Print Assumptions C16_encoding_injective.

(* the repository's codec has the RFC's layout for every RFC type *)
Theorem C16_types_conform : nonconforming gen_env rfc_env = [].
Proof. rewrite nonconforming_lower. vm_compute. reflexivity. Qed.

(* dispatch *)
Theorem C16_dispatch_conforms : procs_conform gen_procs rfc_procs = true.
Proof. vm_compute. reflexivity. Qed.

Theorem C16_both_servers_register_both_tables : registered_ok gen_registered = true.
Proof. vm_compute. reflexivity. Qed.

(* non-vacuity: a READ reply with data round-trips through the generated descriptors *)
Example C16_example :
  let v := VS [("Status", VN 0); ("Resok", VS [("File_attributes", VS [("Attributes_follow", VN 0)]);
               ("Count", VN 3); ("Eof", VN 1); ("Data", VB [Byte.x01; Byte.x02; Byte.x03])])]%string in
  match enc gen_env 40 (TRef "READ3res") v with
  | Some bs => dec gen_env 40 (TRef "READ3res") bs = Some (v, []) /\ List.length bs = 24%nat
  | None => False end.
Proof. vm_compute. auto. Qed.
