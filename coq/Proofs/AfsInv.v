(* The namespace invariant of the reference AM: for every history every object other than the root has
   exactly one name, held by the directory recorded as its parent, only directories have entries, and
   only the root is its own parent (longer cycles of the parent relation are not excluded).  ("." and ".." are not stored: lookup_name
   answers them from the object itself and its parent field, so they are right by construction.) *)
From stdpp Require Import gmap.
From V Require Import Model.Lib Model.Afs Proofs.AfsLaws.
Open Scope N_scope.

Record ainv (s : afs) : Prop := {
  (* an entry of a live object: the holder is a directory, the target is live, is not the root, and
     records the holder as its parent *)
  a_ents : forall di d n i, objs s !! di = Some d -> o_ents d !! n = Some i ->
             o_kind d = KDir /\ i <> ROOT /\ exists o, objs s !! i = Some o /\ o_parent o = di;
  (* every object but the root is named by its parent *)
  a_named : forall i o, objs s !! i = Some o -> i <> ROOT ->
             exists d n, objs s !! (o_parent o) = Some d /\ o_ents d !! n = Some i;
  (* one name per object *)
  a_one : forall di d n1 n2 i, objs s !! di = Some d -> o_ents d !! n1 = Some i -> o_ents d !! n2 = Some i -> n1 = n2;
  a_root : exists o, objs s !! ROOT = Some o /\ o_kind o = KDir /\ o_parent o = ROOT;
  a_files : forall i o, objs s !! i = Some o -> o_kind o <> KDir -> o_ents o = ∅;
  (* only the root is its own parent *)
  a_self : forall i o, objs s !! i = Some o -> o_parent o = i -> i = ROOT
}.

Lemma ainv_init u : ainv (init_afs u).
Proof.
  unfold init_afs, new_obj. split; simpl.
  - intros di d n i H. apply lookup_singleton_Some in H as [<- <-]. simpl. rewrite lookup_empty. discriminate.
  - intros i o H. apply lookup_singleton_Some in H as [<- <-]. congruence.
  - intros di d n1 n2 i H. apply lookup_singleton_Some in H as [<- <-]. simpl. rewrite lookup_empty. discriminate.
  - eexists. rewrite lookup_singleton. auto.
  - intros i o H. apply lookup_singleton_Some in H as [<- <-]. simpl. congruence.
  - intros i o H. apply lookup_singleton_Some in H as [<- <-]. reflexivity.
Qed.

(* [ainv] reads three things of every object: its kind, its entries and its parent.  Stated over these three maps,
   with one object [u] allowed to be detached (live, named by nobody), the invariant is kept by each elementary
   update: dropping an entry detaches its target; a detached object can be re-parented, deleted or given a name.
   CREATE, REMOVE and RENAME are sequences of such updates.  ([a_files] has no clause here: it follows from
   [a_ents], see [ainv_skel].) *)
Section Skeleton.
Implicit Types (km : gmap inum kind) (em : gmap inum (gmap name inum)) (pm : gmap inum inum) (u : option inum).

Record skel_inv u km em pm : Prop := {
  k_ents : forall di e n i, em !! di = Some e -> e !! n = Some i ->
             km !! di = Some KDir /\ i <> ROOT /\ u <> Some i /\ pm !! i = Some di;
  k_named : forall i p, pm !! i = Some p -> i <> ROOT -> u <> Some i -> exists e n, em !! p = Some e /\ e !! n = Some i;
  k_one : forall di e n1 n2 i, em !! di = Some e -> e !! n1 = Some i -> e !! n2 = Some i -> n1 = n2;
  k_root : km !! ROOT = Some KDir /\ pm !! ROOT = Some ROOT;
  k_self : forall i, pm !! i = Some i -> i = ROOT }.

Lemma skel_drop km em pm di e n i : skel_inv None km em pm -> em !! di = Some e -> e !! n = Some i ->
  skel_inv (Some i) km (<[di := delete n e]> em) pm.
Proof.
  intros [E N U R S] He Hn. destruct (E _ _ _ _ He Hn) as (_ & _ & _ & Hpi). split; [| | |exact R|exact S].
  - intros dj e' m j H1 H2. apply lookup_insert_Some in H1 as [[<- <-]|[Hne H1]].
    + apply lookup_delete_Some in H2 as [Hmn H2]. destruct (E _ _ _ _ He H2) as (K & Hr & _ & Hp).
      repeat split; auto. intros [= <-]. exact (Hmn (U _ _ _ _ _ He Hn H2)).
    + destruct (E _ _ _ _ H1 H2) as (K & Hr & _ & Hp). repeat split; auto. intros [= <-]. congruence.
  - intros j p Hp Hr Hu. destruct (N j p Hp Hr) as (e' & m & H1 & H2); [discriminate|].
    destruct (decide (p = di)) as [->|]; [|exists e', m; rewrite lookup_insert_ne by auto; auto].
    exists (delete n e), m. rewrite lookup_insert. split; [reflexivity|]. assert (e' = e) as -> by congruence.
    rewrite lookup_delete_ne; [exact H2|]. intros <-. congruence.
  - intros dj e' n1 n2 j H1. apply lookup_insert_Some in H1 as [[<- <-]|[_ H1]]; [|eauto].
    intros A B. apply lookup_delete_Some in A as [_ A], B as [_ B]. eauto.
Qed.

Lemma skel_add km em pm di e n i : skel_inv (Some i) km em pm -> em !! di = Some e -> km !! di = Some KDir ->
  e !! n = None -> pm !! i = Some di -> i <> ROOT ->
  skel_inv None km (<[di := <[n := i]> e]> em) pm.
Proof.
  intros [E N U R S] He Kd Hn Hp Hr. split; [| | |exact R|exact S].
  - intros dj e' m j H1 H2. apply lookup_insert_Some in H1 as [[<- <-]|[Hne H1]].
    + apply lookup_insert_Some in H2 as [[<- <-]|[Hmn H2]]; [auto|].
      destruct (E _ _ _ _ He H2) as (K & Hrj & _ & Hpj). auto.
    + destruct (E _ _ _ _ H1 H2) as (K & Hrj & _ & Hpj). auto.
  - intros j p Hpj Hrj _. destruct (decide (j = i)) as [->|Hji].
    + assert (p = di) as -> by congruence. exists (<[n := i]> e), n. rewrite !lookup_insert. auto.
    + destruct (N j p Hpj Hrj) as (e' & m & H1 & H2); [congruence|].
      destruct (decide (p = di)) as [->|]; [|exists e', m; rewrite lookup_insert_ne by auto; auto].
      exists (<[n := i]> e), m. rewrite lookup_insert. split; [reflexivity|]. assert (e' = e) as -> by congruence.
      rewrite lookup_insert_ne; [exact H2|]. intros <-. congruence.
  - intros dj e' n1 n2 j H1. apply lookup_insert_Some in H1 as [[<- <-]|[_ H1]]; [|eauto].
    intros A B. apply lookup_insert_Some in A as [[<- <-]|[? A]], B as [[<- ?]|[? B]]; eauto.
    + destruct (E _ _ _ _ He B) as (_ & _ & X & _). congruence.
    + subst j. destruct (E _ _ _ _ He A) as (_ & _ & X & _). congruence.
Qed.

Lemma skel_reparent km em pm i p : skel_inv (Some i) km em pm -> i <> ROOT -> p <> i ->
  skel_inv (Some i) km em (<[i := p]> pm).
Proof.
  intros [E N U R S] Hr Hp. split; [| |exact U| |].
  - intros dj e m j H1 H2. destruct (E _ _ _ _ H1 H2) as (K & Hrj & Hu & Hpj). repeat split; auto.
    rewrite lookup_insert_ne by congruence. exact Hpj.
  - intros j q Hq Hrj Hu. rewrite lookup_insert_ne in Hq by congruence. eauto.
  - rewrite lookup_insert_ne by auto. exact R.
  - intros j Hj. apply lookup_insert_Some in Hj as [[<- <-]|[_ Hj]]; [contradiction|auto].
Qed.

Lemma skel_delete km em pm i : skel_inv (Some i) km em pm -> em !! i = Some ∅ -> i <> ROOT ->
  skel_inv None (delete i km) (delete i em) (delete i pm).
Proof.
  intros [E N U R S] He Hr. split.
  - intros dj e m j H1 H2. apply lookup_delete_Some in H1 as [Hne H1].
    destruct (E _ _ _ _ H1 H2) as (K & Hrj & Hu & Hpj). rewrite !lookup_delete_ne by congruence. auto.
  - intros j p Hp Hrj _. apply lookup_delete_Some in Hp as [Hne Hp].
    destruct (N j p Hp Hrj) as (e & m & H1 & H2); [congruence|]. exists e, m. split; [|exact H2].
    rewrite lookup_delete_ne; [exact H1|]. intros <-. rewrite He in H1. injection H1 as <-. rewrite lookup_empty in H2. discriminate.
  - intros dj e n1 n2 j H1. apply lookup_delete_Some in H1 as [_ H1]. eauto.
  - rewrite !lookup_delete_ne by auto. exact R.
  - intros j Hj. apply lookup_delete_Some in Hj as [_ Hj]. auto.
Qed.

Lemma skel_fresh km em pm i k p : skel_inv None km em pm -> pm !! i = None -> em !! i = None -> i <> ROOT -> p <> i ->
  skel_inv (Some i) (<[i := k]> km) (<[i := ∅]> em) (<[i := p]> pm).
Proof.
  intros [E N U R S] Hi He Hr Hp. split.
  - intros dj e m j H1 H2. apply lookup_insert_Some in H1 as [[<- <-]|[Hne H1]]; [rewrite lookup_empty in H2; discriminate|].
    destruct (E _ _ _ _ H1 H2) as (K & Hrj & _ & Hpj). assert (j <> i) by congruence.
    rewrite !lookup_insert_ne by congruence. repeat split; auto. congruence.
  - intros j q Hq Hrj Hu. rewrite lookup_insert_ne in Hq by congruence.
    destruct (N j q Hq Hrj) as (e & m & H1 & H2); [discriminate|]. exists e, m. split; [|exact H2].
    rewrite lookup_insert_ne; [exact H1|]. congruence.
  - intros dj e n1 n2 j H1. apply lookup_insert_Some in H1 as [[<- <-]|[_ H1]]; [rewrite lookup_empty; discriminate|eauto].
  - rewrite !lookup_insert_ne by auto. exact R.
  - intros j Hj. apply lookup_insert_Some in Hj as [[<- <-]|[_ Hj]]; [contradiction|auto].
Qed.
End Skeleton.

Definition skel (u : option inum) (m : gmap inum obj) : Prop :=
  skel_inv u (o_kind <$> m) (o_ents <$> m) (o_parent <$> m).

Lemma ainv_skel s : ainv s <-> skel None (objs s).
Proof.
  unfold skel. split.
  - intros [E N U R F S]. split.
    + intros di e n i He Hn. apply lookup_fmap_Some in He as (d & <- & Hd).
      destruct (E _ _ _ _ Hd Hn) as (K & Hr & o & Ho & Hp). rewrite !lookup_fmap, Hd, Ho. simpl. repeat split; congruence.
    + intros i p Hp Hr _. apply lookup_fmap_Some in Hp as (o & <- & Ho).
      destruct (N _ _ Ho Hr) as (d & n & Hd & Hn). exists (o_ents d), n. rewrite lookup_fmap, Hd. auto.
    + intros di e n1 n2 i He. apply lookup_fmap_Some in He as (d & <- & Hd). eauto.
    + destruct R as (o & Ho & K & Hp). rewrite !lookup_fmap, Ho. simpl. split; congruence.
    + intros i Hi. apply lookup_fmap_Some in Hi as (o & Hp & Ho). eauto.
  - intros [E N U R S].
    assert (E' : forall di d n i, objs s !! di = Some d -> o_ents d !! n = Some i -> o_kind d = KDir /\ i <> ROOT /\ (o_parent <$> objs s) !! i = Some di).
    { intros di d n i Hd Hn. destruct (E di (o_ents d) n i) as (K & Hr & _ & Hp); [rewrite lookup_fmap, Hd; reflexivity|exact Hn|].
      rewrite lookup_fmap, Hd in K. injection K as K. auto. }
    split.
    + intros di d n i Hd Hn. destruct (E' _ _ _ _ Hd Hn) as (K & Hr & Hp). apply lookup_fmap_Some in Hp as (o & Hp & Ho). eauto.
    + intros i o Ho Hr. destruct (N i (o_parent o)) as (e & n & He & Hn); [rewrite lookup_fmap, Ho; reflexivity|exact Hr|discriminate|].
      apply lookup_fmap_Some in He as (d & <- & Hd). eauto.
    + intros di d n1 n2 i Hd. apply (U di). rewrite lookup_fmap, Hd. reflexivity.
    + destruct R as [K Hp]. apply lookup_fmap_Some in K as (o & K & Ho). rewrite lookup_fmap, Ho in Hp. injection Hp as Hp. eauto.
    + intros i o Ho Hk. apply map_empty. intros n. destruct (o_ents o !! n) as [j|] eqn:Hn; [|reflexivity].
      destruct (E' _ _ _ _ Ho Hn) as (K & _). contradiction.
    + intros i o Ho Hp. apply S. rewrite lookup_fmap, Ho. simpl. congruence.
Qed.

Lemma fmap_insert_same {B} (f : obj -> B) (m : gmap inum obj) i o o' :
  m !! i = Some o -> f o' = f o -> f <$> <[i := o']> m = f <$> m.
Proof. intros H E. rewrite fmap_insert, E. apply insert_id. rewrite lookup_fmap, H. reflexivity. Qed.

(* an update of an object that keeps kind, entries and parent *)
Lemma ainv_set_same s i o o' : ainv s -> objs s !! i = Some o ->
  o_kind o' = o_kind o -> o_ents o' = o_ents o -> o_parent o' = o_parent o -> ainv (set_obj s i o').
Proof.
  intros I Hi Hk He Hp. apply ainv_skel in I. apply ainv_skel. unfold skel in *. simpl.
  rewrite !(fmap_insert_same _ _ _ _ _ Hi) by assumption. exact I.
Qed.

(* creating a fresh object i named n in directory di *)
Lemma ainv_create s di d n i o u :
  ainv s -> objs s !! di = Some d -> o_kind d = KDir -> o_ents d !! n = None ->
  objs s !! i = None -> i <> ROOT ->
  o_parent o = di -> o_ents o = ∅ ->
  ainv {| objs := <[i := o]> (<[di := with_ents d (<[n := i]> (o_ents d))]> (objs s)); issued := u; unstable_opt := unstable_opt s |}.
Proof.
  intros I Hd Kd Hn Hi Hr Hp He. apply ainv_skel in I. apply ainv_skel. unfold skel in *. simpl.
  assert (Hdi : di <> i) by congruence.
  rewrite !fmap_insert, (insert_commute (o_ents <$> objs s)) by auto. simpl. rewrite He, Hp.
  rewrite (insert_id (o_kind <$> objs s) di), (insert_id (o_parent <$> objs s) di) by (rewrite lookup_fmap, Hd; reflexivity).
  apply skel_add; auto.
  - apply skel_fresh; auto; rewrite lookup_fmap, Hi; reflexivity.
  - rewrite lookup_insert_ne, lookup_fmap, Hd by auto. reflexivity.
  - rewrite lookup_insert_ne, lookup_fmap, Hd by auto. simpl. congruence.
  - apply lookup_insert.
Qed.

(* removing the (childless) object i named n in directory di *)
Lemma ainv_unlink s di d n i o :
  ainv s -> objs s !! di = Some d -> o_ents d !! n = Some i -> objs s !! i = Some o -> o_ents o = ∅ ->
  ainv (unlink s di d n i).
Proof.
  intros I Hd Hn Hi He. apply ainv_skel in I. apply ainv_skel. unfold skel in *. simpl.
  destruct (k_ents _ _ _ _ I di (o_ents d) n i) as (_ & Hr & _ & Hp); [rewrite lookup_fmap, Hd; reflexivity|exact Hn|].
  assert (Hdi : i <> di). { intros ->. apply Hr, (k_self _ _ _ _ I), Hp. }
  rewrite !fmap_delete, !fmap_insert. simpl.
  rewrite (insert_id (o_kind <$> objs s) di), (insert_id (o_parent <$> objs s) di) by (rewrite lookup_fmap, Hd; reflexivity).
  apply skel_delete; [|rewrite lookup_insert_ne, lookup_fmap, Hi by auto; simpl; rewrite He; reflexivity|exact Hr].
  apply skel_drop; [exact I|rewrite lookup_fmap, Hd; reflexivity|exact Hn].
Qed.

Lemma fmap_alter {A B} (f : A -> B) (g : A -> A) (g' : B -> B) (m : gmap inum A) i :
  (forall x, f (g x) = g' (f x)) -> f <$> alter g i m = alter g' i (f <$> m).
Proof.
  intros H. apply map_eq. intros j. rewrite lookup_fmap. destruct (decide (i = j)) as [->|Hne].
  - rewrite !lookup_alter, lookup_fmap. destruct (m !! j); simpl; [rewrite H|]; reflexivity.
  - rewrite !lookup_alter_ne, lookup_fmap by exact Hne. reflexivity.
Qed.
Lemma fmap_alter_same {A B} (f : A -> B) (g : A -> A) (m : gmap inum A) i :
  (forall x, f (g x) = f x) -> f <$> alter g i m = f <$> m.
Proof. intros H. rewrite (fmap_alter f g id) by exact H. apply alter_id. reflexivity. Qed.

(* [move] is three [alter]s, so its skeleton is the old one with two entry maps and one parent altered;
   whether the two directories are the same one matters only for what d2i holds once n1 has been dropped *)
Lemma ainv_move s d1i n1 d2i n2 fi d1 d2 fo :
  ainv s ->
  objs s !! d1i = Some d1 -> objs s !! d2i = Some d2 -> objs s !! fi = Some fo ->
  o_kind d2 = KDir -> o_ents d1 !! n1 = Some fi -> fi <> d2i -> o_ents d2 !! n2 = None ->
  ainv (move s d1i n1 d2i n2 fi).
Proof.
  intros I H1 H2 Hf K2 Hn1 Hf2 Hn2. apply ainv_skel in I. apply ainv_skel. rewrite move_upd. unfold skel in *. simpl.
  rewrite !(fmap_alter_same o_kind) by reflexivity.
  rewrite (fmap_alter_same o_ents), (fmap_alter o_ents _ (<[n2 := fi]>)), (fmap_alter o_ents _ (delete n1)) by reflexivity.
  rewrite (fmap_alter o_parent _ (fun _ => d2i)), !(fmap_alter_same o_parent) by reflexivity.
  assert (E1 : (o_ents <$> objs s) !! d1i = Some (o_ents d1)) by (rewrite lookup_fmap, H1; reflexivity).
  destruct (k_ents _ _ _ _ I _ _ _ _ E1 Hn1) as (_ & Hr & _ & Hp).
  rewrite (alter_Some _ _ _ _ E1), (alter_Some _ _ fi (o_parent fo)) by (rewrite lookup_fmap, Hf; reflexivity).
  assert (exists e, <[d1i := delete n1 (o_ents d1)]> (o_ents <$> objs s) !! d2i = Some e /\ e !! n2 = None) as (e & He & Hen).
  { destruct (decide (d1i = d2i)) as [->|Hne].
    - exists (delete n1 (o_ents d1)). rewrite lookup_insert. split; [reflexivity|]. apply lookup_delete_None. right. congruence.
    - exists (o_ents d2). rewrite lookup_insert_ne, lookup_fmap, H2 by exact Hne. auto. }
  rewrite (alter_Some _ _ _ _ He). apply skel_add; auto.
  - apply skel_reparent; auto. apply skel_drop; [exact I|exact E1|exact Hn1].
  - rewrite lookup_fmap, H2. simpl. congruence.
  - apply lookup_insert.
Qed.

Lemma ainv_entry_ne s di d n i : ainv s -> objs s !! di = Some d -> o_ents d !! n = Some i -> i <> di.
Proof.
  intros I Hd Hn ->. destruct (a_ents _ I _ _ _ _ Hd Hn) as (_ & Hr & o & Ho & Hp). exact (Hr (a_self _ I _ _ Ho Hp)).
Qed.

(* replacing an existing target ti: deleting it outright and then moving gives the same state as
   unlinking it properly first *)
Lemma move_del_unlink s d1i n1 d2i n2 fi ti d2 :
  objs s !! d2i = Some d2 -> ti <> d1i -> ti <> d2i -> ti <> fi ->
  move (del_obj s ti) d1i n1 d2i n2 fi = move (unlink s d2i d2 n2 ti) d1i n1 d2i n2 fi.
Proof.
  intros H2 Ht1 Ht2 Htf. unfold unlink.
  rewrite (set_obj_upd s d2i d2 (fun d => with_ents d (delete n2 (o_ents d))) H2), !move_upd.
  rewrite <- (upd_obj_del s d2i) by auto. f_equal. destruct (decide (d1i = d2i)) as [->|Hne].
  - rewrite !upd_obj_twice. apply upd_obj_ext. intros d _. unfold with_ents. simpl.
    rewrite (delete_commute _ n1 n2), insert_delete_insert. reflexivity.
  - rewrite (upd_obj_comm _ d2i _ d1i) by auto. rewrite upd_obj_twice. apply upd_obj_ext. intros d _.
    unfold with_ents. simpl. rewrite insert_delete_insert. reflexivity.
Qed.

Lemma ainv_change P s s' : ainv s -> change P s s' -> ainv s'.
Proof.
  intros I [i o sz m a t Hi _|di d n i g k content Hd Kd Hn Fr|di d n i o Hd Hn Hi He
           |d1i d1 n1 d2i d2 n2 fi fo M Hn2|d1i d1 n1 d2i d2 n2 fi fo ti M Hn2 T].
  - eapply ainv_set_same; [exact I|exact Hi|reflexivity..].
  - apply fresh_facts in Fr as (Hi & Hr & _). apply ainv_create; auto.
  - eapply ainv_unlink; eauto. destruct (decide (o_kind o = KDir)); [auto|eapply a_files; eauto].
  - destruct M as (H1 & H2 & K1 & K2 & Hn1 & Hf & Hf2). eapply ainv_move; eauto.
  - destruct M as (H1 & H2 & K1 & K2 & Hn1 & Hf & Hf2), T as (Htf & to & Ht & Kt & Et).
    assert (Hte : o_ents to = ∅) by (destruct (decide (o_kind to = KDir)); [auto|eapply a_files; eauto]).
    assert (Ht2 : ti <> d2i) by (eapply ainv_entry_ne; eauto).
    assert (Ht1 : ti <> d1i) by (intros ->; assert (to = d1) as -> by congruence; rewrite Hte, lookup_empty in Hn1; discriminate).
    rewrite (move_del_unlink s d1i n1 d2i n2 fi ti d2) by assumption.
    pose proof (ainv_unlink s d2i d2 n2 ti to I H2 Hn2 Ht Hte) as Iu.
    set (d2u := with_ents d2 (delete n2 (o_ents d2))) in *.
    (* the premises of ainv_move in the state with the target unlinked, where d1i holds d2u if it is d2i *)
    apply (ainv_move _ d1i n1 d2i n2 fi (if decide (d1i = d2i) then d2u else d1) d2u fo Iu); simpl; rewrite ?lookup_delete_ne by auto.
    + destruct (decide (d1i = d2i)) as [->|]; [apply lookup_insert|rewrite lookup_insert_ne by auto; exact H1].
    + apply lookup_insert.
    + rewrite lookup_insert_ne by auto. exact Hf.
    + exact K2.
    + destruct (decide (d1i = d2i)) as [->|]; [|exact Hn1]. assert (d1 = d2) as -> by congruence.
      simpl. rewrite lookup_delete_ne; [exact Hn1|]. intros <-. congruence.
    + exact Hf2.
    + apply lookup_delete.
Qed.

Section Step.
Variable P : params.

Theorem ainv_step s c hi : ainv s -> ainv (fst (step P s c hi)).
Proof. intros I. destruct (step_cases P s c hi) as [->|[_ C]]; [exact I|exact (ainv_change _ _ _ I C)]. Qed.

(* for every history of calls, whatever the replies and resource hints were *)
Corollary ainv_reachable u cs : ainv (run P (init_afs u) cs).
Proof. apply (run_invariant P ainv); [exact ainv_step|apply ainv_init]. Qed.

(* consequences read off the invariant: LOOKUP of ".." from a child of d names d; every live object
   other than the root is reachable by exactly one name from its parent *)
Corollary dotdot_inverse u cs di d n i o :
  let s := run P (init_afs u) cs in
  objs s !! di = Some d -> o_ents d !! n = Some i -> objs s !! i = Some o ->
  lookup_name i o dotdot = Some di.
Proof.
  intros s Hd Hn Hi. destruct (a_ents _ (ainv_reachable u cs) _ _ _ _ Hd Hn) as (_ & _ & o' & Ho' & Hp).
  fold s in Ho'. rewrite Hi in Ho'. injection Ho' as <-. unfold lookup_name.
  assert (dotdot <> dot) by (intros H; discriminate H).
  rewrite bool_decide_eq_false_2 by assumption. rewrite bool_decide_eq_true_2 by reflexivity. congruence.
Qed.
End Step.
