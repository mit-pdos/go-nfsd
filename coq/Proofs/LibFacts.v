(* Facts about the shared definitions of Model/Lib.v: lengths in N, zero blocks, little-endian integers,
   the set insertion of the executable models. *)
From stdpp Require Import gmap.
From V Require Import Model.Lib.
Open Scope N_scope.

Lemma lenN_app {A} (a b : list A) : lenN (a ++ b) = lenN a + lenN b.
Proof. unfold lenN. rewrite app_length. lia. Qed.
Lemma lenN_takeN {A} n (l : list A) : n <= lenN l -> lenN (takeN n l) = n.
Proof. unfold lenN, takeN. rewrite take_length. lia. Qed.

Lemma zeros_len n : lenN (zeros n) = n.
Proof. unfold lenN, zeros. rewrite replicate_length. lia. Qed.
Lemma zeros_lookup n k : default x00 (zeros n !! k) = x00.
Proof.
  destruct (zeros n !! k) as [x|] eqn:E; [|reflexivity]. unfold zeros in E.
  apply lookup_replicate in E as [-> _]. reflexivity.
Qed.

Lemma byte_to_of x : Byte.to_N (byte_of_N x) = x mod 256.
Proof.
  unfold byte_of_N. destruct (Byte.of_N (x mod 256)) eqn:E; [apply Byte.to_of_N, E|].
  apply Byte.of_N_None_iff in E. pose proof (N.mod_lt x 256). lia.
Qed.

Lemma unle_le n : forall x, unle (le n x) = x mod 256 ^ N.of_nat n.
Proof.
  induction n as [|n IH]; intros x.
  - simpl. rewrite N.mod_1_r. reflexivity.
  - cbn [le unle]. rewrite byte_to_of, IH, Nat2N.inj_succ, N.pow_succ_r', N.mod_mul_r.
    + reflexivity.
    + discriminate.
    + apply N.pow_nonzero. discriminate.
Qed.
Lemma unle_le_small n x : x < 256 ^ N.of_nat n -> unle (le n x) = x.
Proof. intros H. rewrite unle_le. apply N.mod_small, H. Qed.
Lemma le_length n x : length (le n x) = n.
Proof. revert x. induction n; intros; simpl; [reflexivity|]. f_equal. apply IHn. Qed.

(* reading back a field that was laid out at a given position *)
Lemma get_skip n (pre : bytes) x rest off : N.of_nat (length pre) = off ->
  get n (pre ++ le n x ++ rest) off = x mod 256 ^ N.of_nat n.
Proof.
  intros <-. unfold get, dropN. rewrite Nat2N.id, drop_app.
  rewrite take_app_alt by (symmetry; apply le_length). apply unle_le.
Qed.

Lemma elem_of_gs_add `{Countable K} (x y : K) (s : gset K) : y ∈ gs_add x s <-> y = x \/ y ∈ s.
Proof.
  unfold gs_add. destruct s as [m]. unfold elem_of, gset_elem_of, mapset.mapset_elem_of. simpl.
  destruct (decide (y = x)) as [->|Hne].
  - rewrite lookup_insert. split; auto.
  - rewrite lookup_insert_ne by auto. split; [auto|intros [E|E]; [contradiction|exact E]].
Qed.
