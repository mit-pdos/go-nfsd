(* PM — paging of READDIR and READDIRPLUS.  A directory is a list of slots, free or holding an entry; a page is one run
   of the server's loop from a cookie (the index of the next slot to read) until the reply is full or the slots are
   exhausted; `enum` is the client's loop of calls, over a directory that may change between them.  The loop ends, and
   an entry that keeps its slot throughout is listed exactly once. *)
From Coq Require Import List Arith NArith Lia Bool.
Import ListNotations.

Lemma mono_steps (f : nat -> nat) : (forall k, f k <= f (S k)) -> forall a b, a <= b -> f a <= f b.
Proof. intros Hf a b Hab. induction Hab as [|b _ IH]; [reflexivity|]. etransitivity; [exact IH|apply Hf]. Qed.

Lemma nth_error_firstn {A} n : forall (l : list A) k, nth_error (firstn n l) k = if k <? n then nth_error l k else None.
Proof. induction n as [|n IH]; intros [|x l] [|k]; try reflexivity; [now destruct (_ <? _)|exact (IH l k)]. Qed.
Lemma nth_error_skipn {A} c : forall (l : list A) k, nth_error (skipn c l) k = nth_error l (c + k).
Proof. induction c as [|c IH]; intros l k; [reflexivity|]. destruct l; [now destruct k|]. simpl. apply IH. Qed.

Section Paging.
Variable entry : Type.
(* The size accounting of one call is abstract: a budget state, what an entry charges, and when the reply is full.
   READDIR (dir.ApplyEnts) and READDIRPLUS (dir.Apply) are the two instances below the section. *)
Variable budget : Type.
Variable charge : budget -> entry -> budget.
Variable full : budget -> bool.
Definition slot := option entry.
Definition dir := list slot.

(* scan = body of dir.ApplyEnts / dir.Apply; the cookie handed out with an entry is the index of the next slot *)
Fixpoint scan (l:dir) (base:nat) (b:budget) : list (nat*entry) * bool * nat :=
  match l with
  | [] => ([], true, base)
  | None :: r => scan r (S base) b
  | Some e :: r =>
      let b' := charge b e in
      if full b' then ([(base,e)], false, S base)
      else let '(es, eof, nx) := scan r (S base) b' in ((base,e)::es, eof, nx)
  end.
Definition page (d:dir) (cookie:nat) (b0:budget) := scan (skipn cookie d) cookie b0.

(* occupied slots of l, indexed from base *)
Fixpoint occ (l:dir) (base:nat) : list (nat*entry) :=
  match l with [] => [] | None :: r => occ r (S base) | Some e :: r => (base,e) :: occ r (S base) end.

Lemma occ_app a b base : occ (a ++ b) base = occ a base ++ occ b (base + length a).
Proof.
  revert base. induction a as [|[e|] a IH]; intros base; simpl.
  - now rewrite Nat.add_0_r.
  - rewrite IH. f_equal. f_equal. f_equal. lia.
  - rewrite IH. f_equal. f_equal. lia.
Qed.

(* a page lists the occupied slots among the n it passes over: all that are left, or, when the reply fills up
   first, at least one *)
Lemma scan_spec l : forall base b es eof nx, scan l base b = (es, eof, nx) ->
  exists n, nx = base + n /\ n <= length l /\ es = occ (firstn n l) base /\
    if eof then n = length l else 0 < n.
Proof.
  induction l as [|[e|] l IH]; intros base b es eof nx H; simpl in H.
  - injection H as <- <- <-. exists 0. auto.
  - destruct (full (charge b e)).
    + injection H as <- <- <-. exists 1. simpl. repeat split; lia.
    + destruct (scan l (S base) (charge b e)) as [[es' eof'] nx'] eqn:E. injection H as <- <- <-.
      destruct (IH _ _ _ _ _ E) as (n & -> & Hn & -> & C). exists (S n). simpl.
      repeat split; try lia. destruct eof'; lia.
  - destruct (IH _ _ _ _ _ H) as (n & -> & Hn & -> & C). exists (S n). simpl.
    repeat split; try lia. destruct eof; lia.
Qed.

Lemma page_bounds d c b0 es eof nx : page d c b0 = (es, eof, nx) ->
  exists n, nx = c + n /\ n <= length d - c /\ if eof then n = length d - c else 0 < n.
Proof. intros H. apply scan_spec in H as (n & -> & Hn & _ & C). rewrite skipn_length in *. eauto. Qed.

Lemma occ_in l : forall base i e, In (i,e) (occ l base) <-> exists j, i = base + j /\ nth_error l j = Some (Some e).
Proof.
  induction l as [|[x|] l IH]; intros base i e; simpl; rewrite ?IH.
  - split; [intros []|intros ([|j] & _ & H); discriminate].
  - split.
    + intros [[= <- <-]|(j & -> & H)]; [exists 0|exists (S j)]; split; (lia || assumption || reflexivity).
    + intros ([|j] & -> & H); [left; injection H as ->; f_equal; lia|right; exists j; split; [lia|exact H]].
  - split.
    + intros (j & -> & H). exists (S j). split; [lia|exact H].
    + intros ([|j] & -> & H); [discriminate|]. exists j. split; [lia|exact H].
Qed.

Lemma page_in d c b0 es eof nx i e : page d c b0 = (es, eof, nx) ->
  (In (i,e) es <-> c <= i < nx /\ nth_error d i = Some (Some e)).
Proof.
  intros H. apply scan_spec in H as (n & -> & _ & -> & _). rewrite occ_in. split.
  - intros (j & -> & Hj). rewrite nth_error_firstn in Hj. destruct (Nat.ltb_spec j n); [|discriminate].
    rewrite nth_error_skipn in Hj. split; [lia|exact Hj].
  - intros [Hi Hd]. exists (i - c). split; [lia|]. rewrite nth_error_firstn, nth_error_skipn.
    destruct (Nat.ltb_spec (i - c) n); [|lia]. rewrite <- Hd. f_equal. lia.
Qed.

(* the client loop over a changing directory: ds k = directory contents when the k-th call is served *)
Variable ds : nat -> dir.
Variable counts : nat -> budget.        (* the limits of the k-th call, as its initial budget *)
Hypothesis grow : forall k, length (ds k) <= length (ds (S k)).   (* directories never shrink *)

(* run at most `fuel` calls from call number k and cookie c; returns the pages and whether eof was seen *)
Fixpoint enum (fuel k c:nat) : list (list (nat*entry)) * bool :=
  match fuel with O => ([], false) | S f =>
    let '(es, eof, nx) := page (ds k) c (counts k) in
    if eof then ([es], true) else let '(ps, fin) := enum f (S k) nx in (es :: ps, fin) end.

Lemma enum_S f k c : enum (S f) k c =
  let '(es, eof, nx) := page (ds k) c (counts k) in
  if eof then ([es], true) else (es :: fst (enum f (S k) nx), snd (enum f (S k) nx)).
Proof. simpl. destruct (page _ _ _) as [[es [|]] nx]; [reflexivity|]. now destruct (enum f (S k) nx). Qed.

Lemma len_mono k j : length (ds k) <= length (ds (k + j)).
Proof. apply (mono_steps (fun k => length (ds k)) grow). lia. Qed.

(* Termination: if the directory never exceeds M slots, M+1-c calls suffice (whether or not it shrinks: a call that
   does not end the enumeration moves the cookie forward, and never beyond the directory it read). *)
Lemma enum_fuel M : (forall k, length (ds k) <= M) ->
  forall fuel k c, c <= M -> M + 1 - c <= fuel -> snd (enum fuel k c) = true.
Proof.
  intros HM. induction fuel as [|f IH]; intros k c Hc Hf; [lia|].
  rewrite enum_S. destruct (page (ds k) c (counts k)) as [[es eof] nx] eqn:E.
  destruct (page_bounds _ _ _ _ _ _ E) as (n & -> & Hn & C). destruct eof; [reflexivity|].
  specialize (HM k). apply IH; lia.
Qed.
Lemma enum_terminates M : (forall k, length (ds k) <= M) ->
  forall fuel k c, c <= length (ds k) -> M + 1 - c <= fuel -> snd (enum fuel k c) = true.
Proof using grow.
  intros HM fuel k c Hc. apply enum_fuel; [exact HM|]. specialize (HM k). lia.
Qed.

Definition count_idx (i:nat) (es:list (nat*entry)) : nat := length (filter (fun p => Nat.eqb (fst p) i) es).

Lemma count_idx_app i a b : count_idx i (a ++ b) = count_idx i a + count_idx i b.
Proof. unfold count_idx. now rewrite filter_app, app_length. Qed.
Lemma count_idx_0 i es : (forall e, ~ In (i,e) es) -> count_idx i es = 0.
Proof.
  induction es as [|[i' e'] es IH]; intros H; [reflexivity|]. unfold count_idx in *. simpl.
  destruct (Nat.eqb_spec i' i) as [->|]; [destruct (H e'); now left|]. apply IH. intros e He. apply (H e). now right.
Qed.
Lemma count_idx_pos i e es : In (i,e) es -> 1 <= count_idx i es.
Proof.
  intros H. apply in_split in H as (a & b & ->). rewrite count_idx_app.
  unfold count_idx at 2. simpl. rewrite Nat.eqb_refl. simpl. lia.
Qed.

Lemma occ_count_below l : forall base i, i < base -> count_idx i (occ l base) = 0.
Proof. intros base i Hi. apply count_idx_0. intros e He. apply occ_in in He as (j & -> & _). lia. Qed.

Lemma occ_count l : forall base i, count_idx i (occ l base) <= 1.
Proof.
  induction l as [|[x|] l IH]; intros base i; simpl; [unfold count_idx; simpl; lia| |apply IH].
  change ((base, x) :: occ l (S base)) with ([(base, x)] ++ occ l (S base)). rewrite count_idx_app.
  unfold count_idx at 1. simpl. destruct (Nat.eqb_spec base i) as [->|N]; simpl; [rewrite occ_count_below; lia|apply IH].
Qed.

Lemma page_count d c b0 es eof nx i : page d c b0 = (es, eof, nx) ->
  count_idx i es <= 1 /\ (~ c <= i < nx -> count_idx i es = 0).
Proof.
  intros H. split; [apply scan_spec in H as (n & _ & _ & -> & _); apply occ_count|].
  intros Hi. apply count_idx_0. intros e He. apply (page_in _ _ _ _ _ _ _ _ H) in He. tauto.
Qed.

(* No duplicates, whatever happens to the directory between the calls: the cookies increase, so the ranges the
   pages pass over are disjoint. *)
Lemma enum_count i : forall fuel k c, count_idx i (concat (fst (enum fuel k c))) <= if i <? c then 0 else 1.
Proof.
  induction fuel as [|f IH]; intros k c; [destruct (i <? c); apply Nat.le_0_l|].
  rewrite enum_S. destruct (page (ds k) c (counts k)) as [[es eof] nx] eqn:E.
  destruct (page_bounds _ _ _ _ _ _ E) as (n & -> & _). destruct (page_count _ _ _ _ _ _ i E) as [P1 P0].
  destruct eof; simpl.
  - rewrite app_nil_r. destruct (Nat.ltb_spec i c); [rewrite P0 by lia|]; lia.
  - rewrite count_idx_app. specialize (IH (S k) (c + n)).
    destruct (Nat.ltb_spec i c), (Nat.ltb_spec i (c + n)); rewrite ?P0 by lia; lia.
Qed.

(* Completeness: an entry that sits in slot i during the whole enumeration is in the page that passes over i. *)
Lemma enum_complete : forall fuel k c i e,
  c <= i -> (forall j, nth_error (ds (k + j)) i = Some (Some e)) ->
  snd (enum fuel k c) = true -> In (i,e) (concat (fst (enum fuel k c))).
Proof.
  induction fuel as [|f IH]; intros k c i e Hi Hpres; [discriminate|].
  rewrite enum_S. destruct (page (ds k) c (counts k)) as [[es eof] nx] eqn:E.
  destruct (page_bounds _ _ _ _ _ _ E) as (n & -> & _ & C).
  assert (Hk : nth_error (ds k) i = Some (Some e)) by (rewrite <- (Nat.add_0_r k); apply Hpres).
  assert (Hil : i < length (ds k)) by (apply nth_error_Some; rewrite Hk; discriminate).
  assert (Hin : i < c + n -> In (i, e) es) by (intros Hlt; apply (page_in _ _ _ _ _ _ _ _ E); auto).
  destruct eof; simpl; intros Hfin; apply in_or_app; [left; apply Hin; lia|].
  destruct (le_lt_dec (c + n) i) as [Hge|Hlt]; [right|left; apply Hin, Hlt].
  apply IH; [exact Hge| |exact Hfin]. intros j. rewrite Nat.add_succ_comm. apply Hpres.
Qed.

(* Completeness and no duplicates: an entry that sits in slot i during the whole
   enumeration is returned by exactly one call, exactly once. *)
Theorem enum_exactly_once : forall fuel k c i e,
  c <= length (ds k) -> c <= i ->
  (forall j, nth_error (ds (k + j)) i = Some (Some e)) ->       (* present throughout, never moves *)
  snd (enum fuel k c) = true ->
  count_idx i (concat (fst (enum fuel k c))) = 1 /\ In (i,e) (concat (fst (enum fuel k c))).
Proof using grow.
  (* neither the bound on c nor grow is needed *)
  intros fuel k c i e _ Hi Hpres Hfin. pose proof (enum_complete _ _ _ _ _ Hi Hpres Hfin) as Hin.
  split; [|exact Hin]. apply count_idx_pos in Hin. pose proof (enum_count i fuel k c) as H1.
  destruct (Nat.ltb_spec i c); lia.
Qed.
End Paging.
Print Assumptions enum_exactly_once.

(* a page depends on the budget only through what charge and full show of it *)
Lemma scan_sim {entry B B'} (f : B -> B') charge full charge' full' :
  (forall b e, charge' (f b) e = f (charge b e)) -> (forall b, full' (f b) = full b) ->
  forall l base b, scan entry B' charge' full' l base (f b) = scan entry B charge full l base b.
Proof.
  intros Hc Hf. induction l as [|[e|] l IH]; intros base b; simpl; [reflexivity| |apply IH].
  now rewrite Hc, Hf, IH.
Qed.

(* READDIR, dir.ApplyEnts: one counter starting at 64 (dir.go: `var n uint64 = uint64(64)`, its estimate of the
   constant XDR overhead), an entry charges cost e, full when count <= n. *)
Definition rd_budget : Type := (N * N)%type.                     (* (n, count) *)
Definition rd_charge {entry} (cost : entry -> N) (b : rd_budget) (e : entry) : rd_budget := (fst b + cost e, snd b)%N.
Definition rd_full (b : rd_budget) : bool := (snd b <=? fst b)%N.
Definition page_readdir {entry} (cost : entry -> N) (d : dir entry) (cookie : nat) (count : N) :=
  page entry rd_budget (rd_charge cost) rd_full d cookie (64, count)%N.

(* READDIRPLUS, dir.Apply: two counters (dirbytes from 0 charged dcost e, n from 64 charged pcost e);
   full when dirbytes >= dircount or n >= maxcount. *)
Definition rdp_budget : Type := ((N * N) * (N * N))%type.        (* ((dirbytes, n), (dircount, maxcount)) *)
Definition rdp_charge {entry} (dcost pcost : entry -> N) (b : rdp_budget) (e : entry) : rdp_budget :=
  ((fst (fst b) + dcost e, snd (fst b) + pcost e), snd b)%N.
Definition rdp_full (b : rdp_budget) : bool := ((fst (snd b) <=? fst (fst b)) || (snd (snd b) <=? snd (fst b)))%N.
Definition page_readdirplus {entry} (dcost pcost : entry -> N) (d : dir entry) (cookie : nat) (dircount maxcount : N) :=
  page entry rdp_budget (rdp_charge dcost pcost) rdp_full d cookie ((0, 64), (dircount, maxcount))%N.

(* one enumeration may mix the two procedures: the limits of a call say which loop serves it *)
Section Server.
Variable entry : Type.
Variable cost dcost pcost : entry -> N.
Inductive limits := Readdir (count : N) | Readdirplus (dircount maxcount : N).
Definition sv_budget : Type := (rd_budget + rdp_budget)%type.
Definition sv_charge (b : sv_budget) (e : entry) : sv_budget :=
  match b with inl x => inl (rd_charge cost x e) | inr y => inr (rdp_charge dcost pcost y e) end.
Definition sv_full (b : sv_budget) : bool := match b with inl x => rd_full x | inr y => rdp_full y end.
Definition sv_init (l : limits) : sv_budget :=
  match l with Readdir c => inl (64, c)%N | Readdirplus d m => inr ((0, 64), (d, m))%N end.
Definition sv_page (d : dir entry) (cookie : nat) (l : limits) := page entry sv_budget sv_charge sv_full d cookie (sv_init l).

(* the page the mixed enumeration serves is the page of the procedure called *)
Lemma sv_page_readdir d c count : sv_page d c (Readdir count) = page_readdir cost d c count.
Proof. now apply (scan_sim inl). Qed.
Lemma sv_page_readdirplus d c dc mc : sv_page d c (Readdirplus dc mc) = page_readdirplus dcost pcost d c dc mc.
Proof. now apply (scan_sim inr). Qed.

(* the client loop with per-call procedure and limits *)
Definition sv_enum (ds : nat -> dir entry) (lims : nat -> limits) :=
  enum entry sv_budget sv_charge sv_full ds (fun k => sv_init (lims k)).
End Server.
