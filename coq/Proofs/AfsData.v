(* Content laws of the reference AM: what READ returns is, byte for byte, what the latest WRITE to that
   position stored; positions never written, and positions cut off by a truncation, read as zero. *)
From stdpp Require Import gmap.
From Coq Require Import ZifyNat ZifyBool.
From V Require Import Model.Lib Model.Afs Proofs.LibFacts Proofs.AfsLaws.
Open Scope N_scope.

(* every stored chunk is one block long *)
Definition wfm (m : gmap N bytes) : Prop := forall i c, m !! i = Some c -> lenN c = BS.

(* the byte at absolute position i of a sparse content map *)
Definition byte_at (m : gmap N bytes) (i : N) : byte :=
  default x00 (chunk_of m (i / BS) !! N.to_nat (i mod BS)).

Lemma chunk_len m i : wfm m -> lenN (chunk_of m i) = BS.
Proof. intros W. unfold chunk_of. destruct (m !! i) eqn:E; [exact (W _ _ E)|exact (zeros_len BS)]. Qed.

Lemma wfm_empty : wfm ∅.
Proof. intros i c H. rewrite lookup_empty in H. discriminate. Qed.

Lemma byte_at_empty i : byte_at ∅ i = x00.
Proof. unfold byte_at, chunk_of. rewrite lookup_empty. exact (zeros_lookup BS _). Qed.

Lemma div_BS q r : r < BS -> (q * BS + r) / BS = q.
Proof. intros H. unfold BS in *. symmetry. apply (N.div_unique _ _ q r); lia. Qed.
Lemma mod_BS q r : r < BS -> (q * BS + r) mod BS = r.
Proof. intros H. unfold BS in *. symmetry. apply (N.mod_unique _ _ q r); lia. Qed.
Lemma div_mod_BS x : x / BS * BS + x mod BS = x.
Proof. unfold BS. lia. Qed.

Lemma byte_at_chunk m q r : r < BS -> byte_at m (q * BS + r) = default x00 (chunk_of m q !! N.to_nat r).
Proof. intros H. unfold byte_at. rewrite div_BS, mod_BS by assumption. reflexivity. Qed.

(* a statement about every position follows from one about every chunk and every offset in it *)
Lemma byte_at_coords m (F : N -> byte) :
  (forall q k, k < BS -> default x00 (chunk_of m q !! N.to_nat k) = F (q * BS + k)) -> forall i, byte_at m i = F i.
Proof. intros H i. rewrite <- (div_mod_BS i) at 2. apply H. apply N.mod_lt. discriminate. Qed.

Lemma lookup_default_Some (l : bytes) (k : nat) : (k < length l)%nat -> l !! k = Some (default x00 (l !! k)).
Proof. intros H. destruct (l !! k) as [x|] eqn:E; [reflexivity|]. apply lookup_ge_None in E. lia. Qed.

Lemma read_chunks_spec m : wfm m -> forall fuel ci skip cnt,
  skip < BS -> skip + cnt <= N.of_nat fuel * BS ->
  length (read_chunks m fuel ci skip cnt) = N.to_nat cnt /\
  forall k, (k < N.to_nat cnt)%nat ->
    read_chunks m fuel ci skip cnt !! k = Some (byte_at m (ci * BS + skip + N.of_nat k)).
Proof.
  intros W. induction fuel as [|f IH]; intros ci skip cnt Hs Hf.
  - assert (cnt = 0) as -> by lia. split; [reflexivity|intros k Hk; lia].
  - cbn [read_chunks]. destruct (N.eqb_spec cnt 0) as [->|E0]; [split; [reflexivity|intros k Hk; lia]|].
    remember (N.min cnt (BS - skip)) as tn eqn:Htn.
    pose proof (chunk_len m ci W) as HL. unfold lenN in HL.
    assert (La : length (takeN tn (dropN skip (chunk_of m ci))) = N.to_nat tn)
      by (unfold takeN, dropN; rewrite take_length, drop_length; lia).
    destruct (IH (ci + 1) 0 (cnt - tn)) as [IL IK]; [reflexivity|unfold BS in *; lia|].
    split; [rewrite app_length, La, IL; lia|].
    intros k Hk. unfold bytes in *. destruct (decide (k < N.to_nat tn)%nat) as [Hlt|Hge].
    + rewrite lookup_app_l by lia. unfold takeN, dropN. rewrite lookup_take, lookup_drop by lia.
      replace (ci * BS + skip + N.of_nat k) with (ci * BS + (skip + N.of_nat k)) by lia.
      rewrite byte_at_chunk by lia.
      replace (N.to_nat (skip + N.of_nat k)) with (N.to_nat skip + k)%nat by lia.
      apply lookup_default_Some. lia.
    + rewrite lookup_app_r, La, IK by lia. do 2 f_equal. unfold BS in *. lia.
Qed.

Theorem read_bytes_spec m off cnt : wfm m ->
  length (read_bytes m off cnt) = N.to_nat cnt /\
  forall k, (k < N.to_nat cnt)%nat -> read_bytes m off cnt !! k = Some (byte_at m (off + N.of_nat k)).
Proof.
  intros W. unfold read_bytes.
  assert (Hs : off mod BS < BS) by (unfold BS; lia).
  assert (Hf : off mod BS + cnt <= N.of_nat (N.to_nat (cnt / BS) + 2) * BS) by (unfold BS in *; lia).
  destruct (read_chunks_spec m W _ (off / BS) (off mod BS) cnt Hs Hf) as [L K]. split; [exact L|].
  intros k Hk. rewrite K, div_mod_BS by assumption. reflexivity.
Qed.

Lemma splice_spec (c d : bytes) (s : N) (j : nat) :
  (N.to_nat s + length d <= length c)%nat ->
  length (splice c s d) = length c /\
  splice c s d !! j = if decide (N.to_nat s <= j < N.to_nat s + length d)%nat then d !! (j - N.to_nat s)%nat else c !! j.
Proof.
  intros H. unfold splice, takeN. unfold bytes in *. split.
  - rewrite !app_length, take_length, drop_length. lia.
  - destruct (decide (N.to_nat s <= j < N.to_nat s + length d)%nat) as [Hin|Hout].
    + rewrite lookup_app_r by (rewrite take_length; lia). rewrite take_length.
      rewrite lookup_app_l by lia. f_equal. lia.
    + destruct (decide (j < N.to_nat s)%nat).
      * rewrite lookup_app_l by (rewrite take_length; lia). apply lookup_take. lia.
      * rewrite lookup_app_r by (rewrite take_length; lia). rewrite take_length.
        rewrite lookup_app_r by lia. rewrite lookup_drop. f_equal. lia.
Qed.

(* what a position holds once d has been written at p over the content f *)
Definition patch (f : N -> byte) (p : N) (d : bytes) (i : N) : byte :=
  if (p <=? i) && (i <? p + lenN d) then default x00 (d !! N.to_nat (i - p)) else f i.

Lemma patch_out f p d i : ~ (p <= i < p + lenN d) -> patch f p d i = f i.
Proof. intros H. unfold patch. destruct ((p <=? i) && (i <? p + lenN d)) eqn:E; [lia|reflexivity]. Qed.
Lemma patch_nil f p i : patch f p [] i = f i.
Proof. apply patch_out. unfold lenN. simpl. lia. Qed.
Lemma patch_in f p d i : p <= i < p + lenN d -> patch f p d i = default x00 (d !! N.to_nat (i - p)).
Proof. intros H. unfold patch. destruct ((p <=? i) && (i <? p + lenN d)) eqn:E; [reflexivity|lia]. Qed.

Lemma patch_app f p d1 d2 i : patch (patch f p d1) (p + lenN d1) d2 i = patch f p (d1 ++ d2) i.
Proof.
  pose proof (lenN_app d1 d2) as L.
  destruct (decide (p <= i < p + lenN d1)) as [H1|H1]; [|destruct (decide (p + lenN d1 <= i < p + lenN d1 + lenN d2)) as [H2|H2]].
  - rewrite (patch_out _ (p + lenN d1)), !patch_in by lia. unfold lenN, bytes in *. rewrite lookup_app_l by lia. reflexivity.
  - rewrite !patch_in by lia. unfold lenN, bytes in *. rewrite lookup_app_r by lia. do 2 f_equal. lia.
  - rewrite !patch_out by lia. reflexivity.
Qed.

Lemma byte_at_splice m ci skip d : wfm m -> skip + lenN d <= BS ->
  wfm (<[ci := splice (chunk_of m ci) skip d]> m) /\
  forall i, byte_at (<[ci := splice (chunk_of m ci) skip d]> m) i = patch (byte_at m) (ci * BS + skip) d i.
Proof.
  intros W Hfit. pose proof (chunk_len m ci W) as HL. unfold lenN in *.
  assert (Hfit' : (N.to_nat skip + length d <= length (chunk_of m ci))%nat) by lia.
  split.
  - intros j cj Hj. apply lookup_insert_Some in Hj as [[_ <-]|[_ Hj]]; [|exact (W _ _ Hj)].
    unfold lenN. rewrite (proj1 (splice_spec _ d skip 0 Hfit')). exact HL.
  - apply byte_at_coords. intros q r Hr. unfold patch, lenN. rewrite byte_at_chunk by exact Hr. unfold chunk_of at 1.
    destruct (decide (q = ci)) as [->|Hq].
    + rewrite lookup_insert. simpl. rewrite (proj2 (splice_spec _ d skip (N.to_nat r) Hfit')).
      destruct ((ci * BS + skip <=? ci * BS + r) && _) eqn:E.
      * rewrite decide_True by lia. f_equal. f_equal. lia.
      * rewrite decide_False by lia. reflexivity.
    + rewrite lookup_insert_ne by auto. destruct ((ci * BS + skip <=? q * BS + r) && _) eqn:E; [|reflexivity].
      exfalso. unfold BS in *. lia.
Qed.

Lemma write_chunks_nil m fuel ci skip : write_chunks m fuel ci skip [] = m.
Proof. destruct fuel; reflexivity. Qed.

Lemma write_chunks_spec : forall fuel m ci skip d,
  wfm m -> skip < BS -> skip + lenN d <= N.of_nat fuel * BS ->
  wfm (write_chunks m fuel ci skip d) /\
  forall i, byte_at (write_chunks m fuel ci skip d) i = patch (byte_at m) (ci * BS + skip) d i.
Proof.
  induction fuel as [|f IH]; intros m ci skip d W Hs Hf.
  - assert (d = []) as -> by (destruct d; [reflexivity|unfold lenN, BS in *; simpl in *; lia]).
    split; [exact W|]. intros i. symmetry. apply patch_nil.
  - cbn [write_chunks]. destruct d as [|b d0] eqn:Ed; [split; [exact W|]; intros i; symmetry; apply patch_nil|].
    rewrite <- Ed in *. clear Ed b d0.
    set (room := BS - skip). set (d1 := takeN room d). set (d2 := dropN room d).
    assert (Hd : d = d1 ++ d2) by (symmetry; apply take_drop).
    assert (L1 : lenN d1 = N.min room (lenN d)) by (unfold d1, takeN, lenN; rewrite take_length; lia).
    assert (L : lenN d = lenN d1 + lenN d2) by (rewrite Hd at 1; apply lenN_app).
    destruct (byte_at_splice m ci skip d1 W) as [W' B']; [unfold room in *; lia|].
    destruct (N.le_gt_cases (lenN d) room) as [Hle|Hgt].
    + (* everything fits in this chunk *)
      assert (d2 = []) as -> by (unfold d2, dropN; apply drop_ge; unfold lenN in *; lia).
      rewrite write_chunks_nil, app_nil_r in *. subst d1. rewrite <- Hd in *. auto.
    + destruct (IH _ (ci + 1) 0 d2 W') as [WR BR]; [unfold BS; lia| |].
      { unfold room, BS in *. lia. }
      split; [exact WR|]. intros i. rewrite BR, Hd, <- patch_app. unfold patch at 1 2.
      replace ((ci + 1) * BS + 0) with (ci * BS + skip + lenN d1) by (unfold room, BS in *; lia).
      destruct (_ && _); [reflexivity|apply B'].
Qed.

Theorem write_bytes_spec m off d : wfm m ->
  wfm (write_bytes m off d) /\ forall i, byte_at (write_bytes m off d) i = patch (byte_at m) off d i.
Proof.
  intros W. unfold write_bytes.
  assert (Hf : off mod BS + lenN d <= N.of_nat (length d / 4096 + 2) * BS) by (unfold lenN, BS; lia).
  generalize dependent (length d / 4096 + 2)%nat. intros fuel Hf.
  destruct (write_chunks_spec fuel m (off / BS) (off mod BS) d W) as [WR BR]; [unfold BS; lia|exact Hf|].
  split; [exact WR|]. intros i. rewrite BR, div_mod_BS. reflexivity.
Qed.

Lemma chunk_of_filter m n q :
  chunk_of (filter (fun p : N * bytes => fst p <? n) m) q = if q <? n then chunk_of m q else zero_block.
Proof. unfold chunk_of. rewrite map_filter_lookup. destruct (m !! q) as [c|]; simpl; destruct (q <? n); reflexivity. Qed.

Lemma wfm_filter m (P : N * bytes -> bool) : wfm m -> wfm (filter (fun p => P p) m).
Proof. intros W i c H. apply map_filter_lookup_Some in H as [H _]. eapply W; eauto. Qed.

Theorem trunc_data_spec m sz : wfm m ->
  wfm (trunc_data m sz) /\
  forall i, byte_at (trunc_data m sz) i = if i <? sz then byte_at m i else x00.
Proof.
  intros W. unfold trunc_data. pose proof (div_mod_BS sz) as Hsz.
  assert (Hr : sz mod BS < BS) by (apply N.mod_lt; discriminate).
  (* with sz = last * BS + r and a position q * BS + k, "below sz" compares (q, k) with (last, r): the
     arithmetic left for lia has no division in it *)
  set (last := sz / BS) in *. set (r := sz mod BS) in *. clearbody last r.
  destruct (r =? 0) eqn:Er.
  - split; [apply wfm_filter; exact W|]. apply byte_at_coords. intros q k Hk. rewrite chunk_of_filter, byte_at_chunk by exact Hk.
    destruct (q <? last) eqn:Eq, (q * BS + k <? sz) eqn:Ei; try (unfold BS in *; lia); [reflexivity|apply zeros_lookup].
  - set (m1 := filter (fun p : N * bytes => fst p <? last + 1) m).
    assert (W1 : wfm m1) by (apply (wfm_filter m (fun p => fst p <? last + 1)); exact W).
    assert (C1 : forall q, chunk_of m1 q = if q <? last + 1 then chunk_of m q else zero_block) by (intros q; apply chunk_of_filter).
    assert (Cl : chunk_of m1 last = chunk_of m last) by (rewrite C1; replace (last <? last + 1) with true by lia; reflexivity).
    unfold chunk_of at 1 in Cl. destruct (m1 !! last) as [c|] eqn:Ec; simpl in Cl.
    + assert (Lc : lenN c = BS) by (eapply W1; eauto).
      assert (Lt : lenN (takeN r c) = r) by (apply lenN_takeN; lia).
      split; [apply map_Forall_insert_2; [rewrite lenN_app, zeros_len; lia|exact W1]|].
      apply byte_at_coords. intros q k Hk. rewrite byte_at_chunk by exact Hk. unfold chunk_of at 1.
      destruct (decide (q = last)) as [->|Hq].
      * rewrite lookup_insert, <- Cl. simpl. unfold lenN, bytes in *. destruct (last * BS + k <? sz) eqn:Ei.
        -- rewrite lookup_app_l by lia. apply (f_equal (default x00)), lookup_take. lia.
        -- rewrite lookup_app_r by lia. apply zeros_lookup.
      * rewrite lookup_insert_ne by auto. fold (chunk_of m1 q). rewrite C1.
        destruct (q <? last + 1) eqn:Eq, (q * BS + k <? sz) eqn:Ei; try (unfold BS in *; lia); [reflexivity|apply zeros_lookup].
    + split; [exact W1|]. apply byte_at_coords. intros q k Hk. rewrite byte_at_chunk, C1 by exact Hk.
      destruct (q <? last + 1) eqn:Eq, (q * BS + k <? sz) eqn:Ei; try (unfold BS in *; lia); try reflexivity; try apply zeros_lookup.
      (* the last chunk is absent: it reads as zero anyway *)
      assert (q = last) as -> by (unfold BS in *; lia). rewrite <- Cl. apply zeros_lookup.
Qed.

(* chunks are whole blocks, and every position at or beyond the size of an object holds zero *)
Definition cgood (o : obj) : Prop :=
  wfm (o_data o) /\ forall k, o_size o <= k -> byte_at (o_data o) k = x00.
Definition cinv (s : afs) : Prop := forall i o, objs s !! i = Some o -> cgood o.

Lemma cinv_init u : cinv (init_afs u).
Proof.
  intros i o H. unfold init_afs in H. simpl in H. apply lookup_singleton_Some in H as [_ <-].
  split; [apply wfm_empty|intros k _; apply byte_at_empty].
Qed.

Lemma cgood_same_content o o' : o_data o' = o_data o -> o_size o' = o_size o -> cgood o -> cgood o'.
Proof. intros Hd Hs [W Z]. unfold cgood. rewrite Hd, Hs. auto. Qed.

Lemma cgood_write o off d : cgood o ->
  cgood (with_content o (N.max (o_size o) (off + lenN d)) (write_bytes (o_data o) off d)).
Proof.
  intros [W Z]. destruct (write_bytes_spec (o_data o) off d W) as [W' B']. split; [exact W'|].
  simpl. intros k Hk. rewrite B', patch_out by lia. apply Z. lia.
Qed.

Lemma cgood_resize o sz : cgood o ->
  cgood (with_content o sz (if sz <? o_size o then trunc_data (o_data o) sz else o_data o)).
Proof.
  intros [W Z]. destruct (sz <? o_size o) eqn:E.
  - destruct (trunc_data_spec (o_data o) sz W) as [W' B']. split; [exact W'|]. simpl. intros k Hk.
    rewrite B'. destruct (k <? sz) eqn:E2; [lia|reflexivity].
  - split; [exact W|]. simpl. intros k Hk. apply Z. lia.
Qed.

Lemma cgood_recontent o sz m a t : cgood o -> recontent o sz m -> cgood (with_times (with_content o sz m) a t).
Proof.
  intros G C. eapply cgood_same_content; [reflexivity..|].
  destruct C; [exact G|apply cgood_write, G|apply cgood_resize, G].
Qed.

(* a new object holds its initial content (a link target) and nothing else *)
Lemma cgood_new k g di content : cgood (with_content (new_obj k g di) (lenN content) (write_bytes ∅ 0 content)).
Proof.
  destruct (write_bytes_spec ∅ 0 content wfm_empty) as [W B]. split; [exact W|]. simpl. intros i Hi.
  rewrite B, patch_out by lia. apply byte_at_empty.
Qed.

Lemma cinv_set s i o : cinv s -> cgood o -> cinv (set_obj s i o).
Proof. intros I G. apply map_Forall_insert_2; assumption. Qed.
Lemma cinv_del s i : cinv s -> cinv (del_obj s i).
Proof. intros I. apply map_Forall_delete, I. Qed.
Lemma cinv_upd s i f : (forall o, cgood o -> cgood (f o)) -> cinv s -> cinv (upd_obj s i f).
Proof.
  intros Hf I j oj. rewrite upd_obj_lookup. destruct (decide (j = i)) as [->|]; [|apply I].
  destruct (objs s !! i) as [o|] eqn:E; [|discriminate]. intros [= <-]. exact (Hf _ (I _ _ E)).
Qed.

Lemma cinv_change P s s' : cinv s -> change P s s' -> cinv s'.
Proof.
  assert (Move : forall s d1i n1 d2i n2 fi, cinv s -> cinv (move s d1i n1 d2i n2 fi)).
  { intros. rewrite move_upd. repeat apply cinv_upd; [..|assumption]; intros o; apply cgood_same_content; reflexivity. }
  intros I [i o sz m a t Hi C|di d n i g k content Hd _ _ _|di d n i o Hd _ _ _|?|?]; auto using cinv_del.
  - apply cinv_set; [exact I|]. exact (cgood_recontent _ _ _ _ _ (I _ _ Hi) C).
  - apply (cinv_set (set_obj s di _) i); [apply cinv_set; [exact I|]|apply cgood_new].
    apply (cgood_same_content d); [reflexivity..|exact (I _ _ Hd)].
  - apply cinv_del, cinv_set; [exact I|]. apply (cgood_same_content d); [reflexivity..|exact (I _ _ Hd)].
Qed.

Section Step.
Variable P : params.

Theorem cinv_step s c hi : cinv s -> cinv (fst (step P s c hi)).
Proof. intros I. destruct (step_cases P s c hi) as [->|[_ C]]; [exact I|exact (cinv_change _ _ _ I C)]. Qed.

Corollary cinv_reachable u cs : cinv (run P (init_afs u) cs).
Proof. apply (run_invariant P cinv); [exact cinv_step|apply cinv_init]. Qed.
End Step.

Section Client.
Variable P : params.

(* the bytes a successful READ returns are the bytes of the content map *)
Lemma read_is_content o off c : wfm (o_data o) -> 
  forall k, (k < N.to_nat c)%nat -> read_bytes (o_data o) off c !! k = Some (byte_at (o_data o) (off + N.of_nat k)).
Proof. intros W. exact (proj2 (read_bytes_spec (o_data o) off c W)). Qed.

(* an acknowledged WRITE: the object it wrote, and what the object holds afterwards *)
Lemma write_acked s h off cnt st d hi s' n cm a :
  cinv s -> step P s (CWrite h off cnt st d) hi = (s', RWritten n cm a) ->
  exists i o, resolve P s h = Some (i, o) /\ o_kind o = KFile /\ n <= lenN d /\ s' = set_obj s i (written o off n d) /\
    wfm (o_data (written o off n d)) /\
    forall k, byte_at (o_data (written o off n d)) k = patch (byte_at (o_data o)) off (takeN n d) k.
Proof.
  intros I Hw. simpl in Hw.
  destruct (write_cases P s h off cnt st d hi) as [(e & _ & E)|(i & o & n0 & R & Kf & Hle & -> & _ & _ & E)];
    rewrite E in Hw; [discriminate|]. injection Hw as <- <- _ _.
  exists i, o. repeat (split; [assumption || reflexivity|]).
  destruct (I _ _ (resolve_Some _ _ _ _ _ R)) as [W _]. unfold written. destruct (n0 =? 0) eqn:E0.
  - split; [exact W|]. intros k. replace n0 with 0 by lia. symmetry. apply patch_nil.
  - exact (write_bytes_spec (o_data o) off (takeN n0 d) W).
Qed.

(* READ after WRITE: the bytes just acknowledged come back, whatever was there before, for every offset,
   length, stability level and earlier history *)
Theorem read_after_write s h off cnt st d hi s' n cm a hi' :
  cinv s ->
  step P s (CWrite h off cnt st d) hi = (s', RWritten n cm a) -> 0 < n ->
  exists eof, snd (step P s' (CRead h off n) hi') = RData (takeN n d) eof.
Proof.
  intros I Hw Hn. destruct (write_acked _ _ _ _ _ _ _ _ _ _ _ I Hw) as (i & o & R & Kf & Hle & -> & W' & B').
  pose proof (lenN_takeN n d Hle) as Ln. unfold written in *. replace (n =? 0) with false in * by lia. simpl in W', B'.
  simpl. unfold do_read. rewrite (resolve_set P s h i o _ R) by reflexivity. simpl.
  rewrite (bool_decide_eq_true_2 _ Kf). simpl.
  destruct (_ <=? off) eqn:E; [lia|]. rewrite N.min_l by lia.
  eexists. cbn [snd]. apply (f_equal2 RData); [|reflexivity].
  destruct (read_bytes_spec _ off n W') as [RL RK].
  apply list_eq. intros k. destruct (decide (k < N.to_nat n)%nat) as [Hk|Hk].
  - rewrite RK, B', patch_in by lia. replace (N.to_nat (off + N.of_nat k - off)) with k by lia.
    symmetry. apply lookup_default_Some. unfold lenN in Ln. lia.
  - rewrite !lookup_ge_None_2; [reflexivity|unfold lenN in Ln|]; lia.
Qed.

(* a WRITE changes nothing outside the range it was acknowledged for, in that file or any other object *)
Theorem write_frame s h off cnt st d hi s' n cm a :
  cinv s -> step P s (CWrite h off cnt st d) hi = (s', RWritten n cm a) ->
  exists i o o', resolve P s h = Some (i, o) /\ objs s' = <[i := o']> (objs s) /\
    (forall k, ~ (off <= k < off + n) -> byte_at (o_data o') k = byte_at (o_data o) k) /\
    o_size o' = (if n =? 0 then o_size o else N.max (o_size o) (off + n)).
Proof.
  intros I Hw. destruct (write_acked _ _ _ _ _ _ _ _ _ _ _ I Hw) as (i & o & R & _ & Hle & -> & _ & B').
  exists i, o, (written o off n d). split; [exact R|]. split; [reflexivity|]. split.
  - intros k Hk. rewrite B', patch_out by (rewrite lenN_takeN by exact Hle; exact Hk). reflexivity.
  - unfold written. destruct (n =? 0); reflexivity.
Qed.

(* no stale data: in every reachable state, every position at or beyond the size of a file holds zero, so
   growing a file (SETATTR, or a WRITE beyond the end) can only expose zeros; together with trunc_data_spec
   (positions cut off are zero at once) nothing that was ever removed from a file can reappear *)
Theorem beyond_size_is_zero u cs i o k :
  objs (run P (init_afs u) cs) !! i = Some o -> o_size o <= k -> byte_at (o_data o) k = x00.
Proof. intros H Hk. exact (proj2 (cinv_reachable P u cs i o H) k Hk). Qed.
End Client.
