(* Round-trip theorems for the on-disk layouts (C10). *)
From stdpp Require Import list.
From V Require Import Model.Lib Model.Abs Model.Layout Proofs.LibFacts.
Open Scope N_scope.

(* The three formats have fields of numeral widths at numeral offsets: [le w x] is a list of w conses, so
   the bytes a decoder selects for a field are [le w x] by computation ([change]); [unle_le_small] then
   gives back x because it is in range. *)

Theorem decode_encode_fh i g : i < 2^64 -> g < 2^64 -> parse_handle (encode_fh i g) = Some (i, g).
Proof.
  intros Hi Hg. change (parse_handle (encode_fh i g)) with (Some (unle (le 8 i), unle (le 8 g))).
  rewrite !unle_le_small by assumption. reflexivity.
Qed.

Theorem decode_encode_dirent inum n : 0 < inum -> inum < 2^64 -> lenN n <= 112 ->
  slot_of (encode_dirent inum n) 0 = Some (n, inum) /\ length (encode_dirent inum n) = 128%nat.
Proof.
  intros H0 Hi Hn. split.
  - change (slot_of (encode_dirent inum n) 0) with
      (if unle (le 8 inum) =? 0 then None
       else Some (takeN (unle (le 8 (lenN n))) (n ++ zeros (DIRENTSZ - 16 - lenN n)), unle (le 8 inum))).
    rewrite !unle_le_small by (change (256 ^ N.of_nat 8) with (2^64); lia).
    destruct (N.eqb_spec inum 0) as [->|_]; [inversion H0|].
    unfold takeN, lenN. rewrite Nat2N.id, take_app. reflexivity.
  - unfold encode_dirent, zeros. rewrite !app_length, !le_length, replicate_length.
    unfold DIRENTSZ, lenN in *. lia.
Qed.

Lemma words_concat_le (l : list N) rest : Forall (fun b => b < 2^64) l ->
  words (length l) (concat (map (le 8) l) ++ rest) = l.
Proof.
  induction 1 as [|x l Hx _ IH]; [reflexivity|].
  cbn [length map concat words]. rewrite <- app_assoc.
  change (take 8 (le 8 x ++ ?r)) with (le 8 x). change (drop 8 (le 8 x ++ ?r)) with r.
  rewrite unle_le_small, IH by assumption. reflexivity.
Qed.

Theorem decode_encode_inode ip : inode_in_range ip -> decode_inode (encode_inode ip) = ip.
Proof.
  intros (Hk & Hn & Hg & Hs & Hh & Ha1 & Ha2 & Hm1 & Hm2 & Hl & Hb).
  change (decode_inode (encode_inode ip)) with
    {| i_kind := unle (le 4 (i_kind ip)); i_nlink := unle (le 4 (i_nlink ip)); i_gen := unle (le 8 (i_gen ip));
       i_size := unle (le 8 (i_size ip)); i_shrink := unle (le 8 (i_shrink ip));
       i_atime := (unle (le 4 (fst (i_atime ip))), unle (le 4 (snd (i_atime ip))));
       i_mtime := (unle (le 4 (fst (i_mtime ip))), unle (le 4 (snd (i_mtime ip))));
       i_blks := words 10 (concat (map (le 8) (i_blks ip))) |}.
  rewrite !unle_le_small by assumption.
  rewrite <- Hl, <- (app_nil_r (concat _)), words_concat_le by assumption.
  destruct ip as [? ? ? ? ? [] [] ?]. reflexivity.
Qed.
