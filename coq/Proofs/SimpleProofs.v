(* SimpleNFS: the transliterated inode operations i_read, i_write, i_setsize (arithmetic mod 2^64) agree with
   s_read, s_write, s_setsize on byte lists for all arguments below 2^64, inode by inode under [rep] (the file is
   the first [size] bytes of the block); hence the two servers agree, step by step and over whole histories,
   under [srep]. *)
From stdpp Require Import gmap.
From Coq Require Import List ZArith Lia Bool.
From V Require Import Model.SimpleModel.
Open Scope N_scope.

Definition rep (ip:ino) (f:file) : Prop :=
  length (blk ip) = N.to_nat BS /\ size ip <= BS /\ f = firstn (N.to_nat (size ip)) (blk ip).

Lemma rep_len ip f : rep ip f -> lenN f = size ip.
Proof. intros (L & S & ->). unfold lenN. rewrite firstn_length. unfold BS in *. lia. Qed.

Lemma sum_overflows_spec n m : n < W -> m < W -> sum_overflows n m = (W <=? n + m).
Proof.
  intros Hn Hm. unfold sum_overflows.
  destruct (N.leb_spec W (n + m)) as [Hge|Hlt].
  - replace ((n + m) mod W) with (n + m - W) by (apply (N.mod_unique _ _ 1); unfold W in *; lia).
    apply N.ltb_lt. unfold W in *. lia.
  - rewrite N.mod_small by exact Hlt. apply N.ltb_ge. lia.
Qed.

(* Inode.Write without the wrap-around arithmetic *)
Lemma i_write_spec ip offset count data : offset < W -> count < W ->
  i_write ip offset count data =
  if (count =? lenN data) && ((offset <=? size ip) && (offset + count <=? BS))
  then Some (count, {| size := N.max (size ip) (offset + count); blk := splice (blk ip) offset data |})
  else None.
Proof.
  intros Ho Hc. unfold i_write. rewrite sum_overflows_spec by assumption.
  destruct (count =? lenN data); [|reflexivity]. cbn [negb andb].
  destruct (N.leb_spec W (offset + count)) as [Hov|Hnov].
  - destruct (N.leb_spec (offset + count) BS); [unfold W, BS in *; lia|]. now rewrite andb_false_r.
  - rewrite N.mod_small by exact Hnov. rewrite (N.ltb_antisym (offset + count) BS), (N.ltb_antisym offset).
    replace (if size ip <? offset + count then offset + count else size ip) with (N.max (size ip) (offset + count))
      by (destruct (N.ltb_spec (size ip) (offset + count)); lia).
    destruct (offset + count <=? BS), (offset <=? size ip); reflexivity.
Qed.

Section Splice.
Local Open Scope nat_scope.
Lemma splice_length l off d : N.to_nat off + length d <= length l -> length (splice l off d) = length l.
Proof. intros H. unfold splice. rewrite !app_length, firstn_length, skipn_length. lia. Qed.

Lemma firstn_splice_ge l off d n :
  N.to_nat off + length d <= length l -> N.to_nat off + length d <= n ->
  firstn n (splice l off d) = firstn (N.to_nat off) l ++ d ++ firstn (n - (N.to_nat off + length d)) (skipn (N.to_nat off + length d) l).
Proof.
  intros H1 H2. unfold splice.
  replace n with (length (firstn (N.to_nat off) l) + (length d + (n - (N.to_nat off + length d)))) at 1
    by (rewrite firstn_length; lia).
  rewrite !firstn_app_2. reflexivity.
Qed.
End Splice.

(* a write inside the block keeps the representation: the file is spliced like the block *)
Lemma rep_write ip f offset count data : rep ip f -> count = lenN data -> offset <= size ip -> offset + count <= BS ->
  rep {| size := N.max (size ip) (offset + count); blk := splice (blk ip) offset data |}
      (firstn (N.to_nat offset) f ++ data ++ skipn (N.to_nat offset + length data) f).
Proof.
  intros (L & S & ->) -> Ho Hfit. unfold lenN in *.
  assert (Hfit': (N.to_nat offset + length data <= length (blk ip))%nat) by lia.
  split; [|split]; cbn [size blk].
  - rewrite splice_length by exact Hfit'. exact L.
  - lia.
  - rewrite firstn_firstn, Nat.min_l by lia.
    destruct (N.max_spec (size ip) (offset + N.of_nat (length data))) as [[Hext ->]|[Hin ->]].
    + (* the write extends the file *)
      rewrite firstn_splice_ge, skipn_all2 by (rewrite ?firstn_length; lia).
      replace (_ - _)%nat with 0%nat by lia. reflexivity.
    + (* overwrite inside the file *)
      rewrite firstn_splice_ge, skipn_firstn_comm by lia. reflexivity.
Qed.

(* writing at the end of the file appends *)
Lemma rep_append ip f data sz : rep ip f -> sz = size ip + lenN data -> sz <= BS ->
  rep {| size := sz; blk := splice (blk ip) (size ip) data |} (f ++ data).
Proof.
  intros R -> Hfit. pose proof (rep_len _ _ R) as Hl. unfold lenN in Hl.
  pose proof (rep_write ip f (size ip) _ data R eq_refl (N.le_refl _) Hfit) as R'.
  rewrite N.max_r, firstn_all2, skipn_all2, app_nil_r in R' by lia. exact R'.
Qed.

Theorem read_refines ip f offset count : rep ip f -> offset < W -> count < W ->
  i_read ip offset count = s_read f offset count.
Proof.
  intros R _ _. pose proof (rep_len _ _ R) as Hl. destruct R as (L & S & ->).
  unfold i_read, s_read. rewrite Hl. destruct (N.leb_spec (size ip) offset) as [Hge|Hlt]; [reflexivity|].
  (* the count actually read is the minimum, and with it the sum cannot wrap *)
  replace (if size ip - offset <? count then size ip - offset else count) with (N.min count (size ip - offset))
    by (destruct (N.ltb_spec (size ip - offset) count); lia).
  rewrite N.mod_small by (unfold W, BS in *; lia).
  unfold sub. rewrite skipn_firstn_comm, firstn_firstn. do 2 f_equal. lia.
Qed.

Theorem write_refines ip f offset count data : rep ip f -> offset < W -> count < W ->
  match i_write ip offset count data with
  | Some (c, ip') => c = count /\ count = lenN data /\ exists f', s_write f offset data = Some f' /\ rep ip' f'
  | None => count <> lenN data \/ s_write f offset data = None
  end.
Proof.
  intros R Ho Hc. rewrite i_write_spec by assumption. unfold s_write. rewrite (rep_len _ _ R).
  destruct (N.eqb_spec count (lenN data)) as [->|Nc]; [|now left]. cbn [andb].
  destruct ((offset <=? size ip) && (offset + lenN data <=? BS)) eqn:C; [|now right].
  apply andb_true_iff in C as [Hin Hfit]. apply N.leb_le in Hin, Hfit.
  split; [reflexivity|]. split; [reflexivity|]. eexists. split; [reflexivity|]. now apply rep_write.
Qed.

(* the buffer SETATTR allocates (make([]sbyte, newsize-size)) never exceeds one block *)
Lemma setsize_alloc_bounded ip newsize : snd (i_setsize ip newsize) <= BS.
Proof.
  unfold i_setsize. destruct (N.ltb_spec BS newsize); [simpl; unfold BS; lia|].
  destruct (N.ltb_spec (size ip) newsize); [|simpl; unfold BS; lia].
  destruct (i_write _ _ _ _) as [[c ip']|]; simpl; lia.
Qed.

Lemma lenN_repeat (x:sbyte) n : lenN (repeat x (N.to_nat n)) = n.
Proof. unfold lenN. rewrite repeat_length. lia. Qed.

Theorem setsize_refines ip f newsize : rep ip f -> newsize < W ->
  match fst (i_setsize ip newsize) with
  | Some ip' => exists f', s_setsize f newsize = Some f' /\ rep ip' f'
  | None => s_setsize f newsize = None
  end.
Proof.
  intros R _. pose proof (rep_len _ _ R) as Hl. unfold i_setsize, s_setsize. rewrite Hl.
  destruct (N.ltb_spec BS newsize) as [Hbig|Hsmall]; [reflexivity|].
  destruct (N.ltb_spec (size ip) newsize) as [Hgrow|Hshrink].
  - (* grow: Write appends a zero buffer at the end of the file *)
    set (n := newsize - size ip). assert (En : size ip + n = newsize) by lia.
    assert (S : size ip <= BS) by apply R.
    rewrite i_write_spec by (unfold W, BS in *; lia).
    rewrite lenN_repeat, En, N.eqb_refl, N.leb_refl, N.max_r, (proj2 (N.leb_le _ _) Hsmall) by lia.
    cbn. rewrite N.eqb_refl. eexists. split; [reflexivity|].
    apply rep_append; [exact R|rewrite lenN_repeat; lia|exact Hsmall].
  - destruct R as (L & S & ->). eexists. split; [reflexivity|]. split; [exact L|]. split; [cbn; lia|]. cbn.
    rewrite firstn_firstn. f_equal. lia.
Qed.
Print Assumptions setsize_refines.

Definition srep (si:istate) (ss:sstate) : Prop := forall i, rep (i_ino si i) (s_file ss i).

Definition call_in_range (c:scall) : Prop :=
  match c with
  | SGetattr _ => True
  | SSetattr _ None => True
  | SSetattr _ (Some n) => n < W
  | SRead _ off cnt => off < W /\ cnt < W
  | SWrite _ off cnt _ => off < W /\ cnt < W
  end.

Lemma srep_init : srep ∅ ∅.
Proof.
  intros i. unfold i_ino, s_file, istate, sstate. rewrite !lookup_empty.
  split; [apply repeat_length|]. split; [apply N.le_0_l|reflexivity].
Qed.

Lemma srep_insert si ss i ip f : srep si ss -> rep ip f -> srep (<[i:=ip]> si) (<[i:=f]> ss).
Proof.
  intros H R j. specialize (H j). unfold i_ino, s_file, istate, sstate in *. destruct (decide (i = j)) as [->|Hn].
  - rewrite !lookup_insert. exact R.
  - rewrite !lookup_insert_ne by exact Hn. exact H.
Qed.

Theorem simple_refines si ss c : srep si ss -> call_in_range c ->
  snd (istep si c) = snd (sstep ss c) /\ srep (fst (istep si c)) (fst (sstep ss c)).
Proof.
  intros H Hr. destruct c as [i|i [n|]|i off cnt|i off cnt d]; simpl in *.
  - destruct (i =? 1); [auto|]. destruct (valid_inum i); [|auto]. simpl. split; [|auto].
    f_equal. symmetry. apply rep_len. apply H.
  - destruct (valid_inum i); [|auto].
    pose proof (setsize_refines (i_ino si i) (s_file ss i) n (H i) Hr) as R.
    destruct (fst (i_setsize (i_ino si i) n)) as [ip'|].
    + destruct R as (f' & -> & R'). simpl. split; [reflexivity|]. apply srep_insert; auto.
    + rewrite R. auto.
  - destruct (valid_inum i); auto.
  - destruct Hr as [Ho Hc]. destruct (valid_inum i); [|auto].
    rewrite (read_refines _ _ off cnt (H i) Ho Hc). destruct (s_read (s_file ss i) off cnt). auto.
  - destruct Hr as [Ho Hc]. destruct (valid_inum i); [|auto].
    pose proof (write_refines (i_ino si i) (s_file ss i) off cnt d (H i) Ho Hc) as R.
    destruct (i_write (i_ino si i) off cnt d) as [[c' ip']|].
    + destruct R as (-> & Hl & f' & Hs & R'). rewrite Hl, N.eqb_refl. simpl. rewrite Hs. simpl.
      split; [reflexivity|]. apply srep_insert; auto.
    + destruct R as [Hne|Hs].
      * apply N.eqb_neq in Hne. rewrite Hne. simpl. auto.
      * destruct (cnt =? lenN d); simpl; [rewrite Hs|]; auto.
Qed.

Fixpoint iruns (s:istate) (cs:list scall) : istate * list sreply :=
  match cs with [] => (s, []) | c :: r => let '(s1, x) := istep s c in let '(s2, xs) := iruns s1 r in (s2, x :: xs) end.
Fixpoint sruns (s:sstate) (cs:list scall) : sstate * list sreply :=
  match cs with [] => (s, []) | c :: r => let '(s1, x) := sstep s c in let '(s2, xs) := sruns s1 r in (s2, x :: xs) end.

Theorem simple_refines_history cs : forall si ss, srep si ss -> Forall call_in_range cs ->
  snd (iruns si cs) = snd (sruns ss cs) /\ srep (fst (iruns si cs)) (fst (sruns ss cs)).
Proof.
  induction cs as [|c cs IH]; intros si ss H Hr; [split; [reflexivity|exact H]|].
  inversion Hr as [|? ? Hc Hcs]; subst.
  destruct (simple_refines si ss c H Hc) as [E R]. cbn [iruns sruns].
  destruct (istep si c) as [s1 x], (sstep ss c) as [t1 y]. cbn [fst snd] in E, R.
  destruct (IH _ _ R Hcs) as [E2 R2].
  destruct (iruns s1 cs) as [s2 xs], (sruns t1 cs) as [t2 ys]. cbn [fst snd] in *.
  split; [rewrite E, E2; reflexivity|exact R2].
Qed.
