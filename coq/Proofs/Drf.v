(* LM, lockset discipline: traces of lock acquisitions, releases and memory accesses by threads.  Accesses made
   under the lock that guards the location are ordered by a release and a later acquisition of it (lockset_drf). *)
From Coq Require Import List Arith Lia.
Import ListNotations.

Inductive ev := Acq (t l:nat) | Rel (t l:nat) | Acc (t x:nat) (w:bool).

Section Drf.
Variable guard : nat -> nat.

Definition holder := nat -> option nat.
Definition upd (h:holder) l v : holder := fun l' => if Nat.eqb l' l then v else h l'.

(* well-formed locking and every access inside a critical section of its guard *)
Fixpoint wf (h:holder) (tr:list ev) : Prop :=
  match tr with
  | [] => True
  | Acq t l :: r => h l = None /\ wf (upd h l (Some t)) r
  | Rel t l :: r => h l = Some t /\ wf (upd h l None) r
  | Acc t x _ :: r => h (guard x) = Some t /\ wf h r
  end.

Lemma upd_same h l v : upd h l v l = v.
Proof. unfold upd. now rewrite Nat.eqb_refl. Qed.
Lemma upd_other h l v l' : l' <> l -> upd h l v l' = h l'.
Proof. unfold upd. intros H. apply Nat.eqb_neq in H. now rewrite H. Qed.

Definition next (h:holder) (e:ev) : holder :=
  match e with Acq t l => upd h l (Some t) | Rel t l => upd h l None | Acc _ _ _ => h end.

Lemma wf_tail h e tr : wf h (e :: tr) -> wf (next h e) tr.
Proof. destruct e; simpl; tauto. Qed.

(* Only Acq t L makes t the holder of L, and only Rel t L ends it. *)
Lemma next_gains h e L t : h L <> Some t -> e = Acq t L \/ next h e L <> Some t.
Proof.
  intros Hh. destruct e as [t' l|t' l|]; simpl; auto; destruct (Nat.eq_dec L l) as [->|N].
  - destruct (Nat.eq_dec t' t) as [->|Nt]; auto. right. rewrite upd_same. congruence.
  - rewrite upd_other; auto.
  - right. rewrite upd_same. discriminate.
  - rewrite upd_other; auto.
Qed.

Lemma next_loses h e tr L t : wf h (e :: tr) -> h L = Some t -> e = Rel t L \/ next h e L = Some t.
Proof.
  intros Hwf Hh. destruct e as [t' l|t' l|]; simpl in *; auto; destruct Hwf as [H _]; destruct (Nat.eq_dec L l) as [->|N].
  - congruence.
  - rewrite upd_other; auto.
  - left. congruence.
  - rewrite upd_other; auto.
Qed.

Lemma must_acquire t2 x w : forall tr h j,
  wf h tr -> h (guard x) <> Some t2 -> nth_error tr j = Some (Acc t2 x w) ->
  exists b, b < j /\ nth_error tr b = Some (Acq t2 (guard x)).
Proof.
  induction tr as [|e tr IH]; intros h j Hwf Hh Hj; [destruct j; discriminate|].
  destruct j as [|j]; simpl in Hj.
  - injection Hj as ->. destruct Hwf as [Hx _]. contradiction.
  - destruct (next_gains h e _ t2 Hh) as [->|N].
    + exists 0. split; [lia|reflexivity].
    + destruct (IH (next h e) j) as (b & Hb & Eb); auto using wf_tail.
      exists (S b). split; [lia|exact Eb].
Qed.

Lemma must_release_then_acquire t1 t2 x w : t1 <> t2 -> forall tr h j,
  wf h tr -> h (guard x) = Some t1 -> nth_error tr j = Some (Acc t2 x w) ->
  exists a b, a < b /\ b < j /\
    nth_error tr a = Some (Rel t1 (guard x)) /\ nth_error tr b = Some (Acq t2 (guard x)).
Proof.
  intros Hne. induction tr as [|e tr IH]; intros h j Hwf Hh Hj; [destruct j; discriminate|].
  destruct j as [|j]; simpl in Hj.
  - injection Hj as ->. destruct Hwf as [Hx _]. congruence.
  - destruct (next_loses _ _ _ _ _ Hwf Hh) as [->|E]; apply wf_tail in Hwf.
    + destruct (must_acquire t2 x w tr _ j Hwf) as (b & Hb & Eb); auto.
      * simpl. rewrite upd_same. discriminate.
      * exists 0, (S b). repeat split; trivial; lia.
    + destruct (IH _ j Hwf E Hj) as (a & b & ? & ? & Ea & Eb).
      exists (S a), (S b). repeat split; trivial; lia.
Qed.

Theorem lockset_drf_from h tr i j t1 t2 x w1 w2 :
  wf h tr -> i < j -> t1 <> t2 ->
  nth_error tr i = Some (Acc t1 x w1) -> nth_error tr j = Some (Acc t2 x w2) ->
  exists a b, i < a /\ a < b /\ b < j /\
    nth_error tr a = Some (Rel t1 (guard x)) /\ nth_error tr b = Some (Acq t2 (guard x)).
Proof.
  intros Hwf Hij Hne. revert h i j Hwf Hij.
  induction tr as [|e tr IH]; intros h i j Hwf Hij Hi Hj; [destruct i; discriminate|].
  destruct j as [|j]; [lia|]. destruct i as [|i]; simpl in Hi, Hj.
  - injection Hi as ->. destruct Hwf as [Hh Hwf].
    destruct (must_release_then_acquire t1 t2 x w2 Hne tr h j) as (a & b & ? & ? & Ea & Eb); auto.
    exists (S a), (S b). repeat split; trivial; lia.
  - destruct (IH (next h e) i j) as (a & b & ? & ? & ? & Ea & Eb); auto using wf_tail; [lia|].
    exists (S a), (S b). repeat split; trivial; lia.
Qed.

(* The theorem: in a well-formed trace where every access is guarded, two accesses
   to the same location by different threads are separated by a release of the
   guard by the first thread and a later acquire by the second: they are ordered
   by happens-before, i.e. there is no data race.  (Holds for any pair, so in
   particular for conflicting ones.) *)
Theorem lockset_drf tr i j t1 t2 x w1 w2 :
  wf (fun _ => None) tr -> i < j -> t1 <> t2 ->
  nth_error tr i = Some (Acc t1 x w1) -> nth_error tr j = Some (Acc t2 x w2) ->
  exists a b, i < a /\ a < b /\ b < j /\
    nth_error tr a = Some (Rel t1 (guard x)) /\ nth_error tr b = Some (Acq t2 (guard x)).
Proof. apply lockset_drf_from. Qed.
End Drf.
Print Assumptions lockset_drf.
