(* LM, lock order: every thread acquires a strictly ascending list of locks one at a time, waiting for each, and then
   releases them all.  No reachable state is stuck (ordered_no_deadlock): of the threads that want a lock take one
   that wants the largest; whoever holds that lock wants only larger ones, hence none, and can release. *)
From Coq Require Import List Lia Sorted Arith.
Import ListNotations.

Record thread := { held : list nat; todo : list nat }.
Definition st := list thread.
Definition all_held (s:st) : list nat := flat_map held s.

Inductive step : st -> st -> Prop :=
| s_acq pre t post l rest :
    todo t = l :: rest -> ~ In l (all_held (pre ++ t :: post)) ->
    step (pre ++ t :: post) (pre ++ {| held := l :: held t; todo := rest |} :: post)
| s_fin pre t post :
    todo t = [] -> held t <> [] ->
    step (pre ++ t :: post) (pre ++ {| held := []; todo := [] |} :: post).

Inductive reach : st -> st -> Prop :=
| r_refl s : reach s s
| r_step s s' s'' : reach s s' -> step s' s'' -> reach s s''.

Definition tinv (t:thread) : Prop :=
  StronglySorted lt (todo t) /\ forall h x, In h (held t) -> In x (todo t) -> h < x.
Definition init_ok (s:st) := Forall (fun t => held t = [] /\ StronglySorted lt (todo t)) s.

Lemma tinv_step s s' : Forall tinv s -> step s s' -> Forall tinv s'.
Proof.
  intros Hi Hs. destruct Hs as [pre t post l rest Ht _ | pre t post _ _];
    apply Forall_app in Hi as [Hpre Hi]; inversion Hi as [|? ? [Hs Hlt] Hpost]; subst;
    apply Forall_app; split; trivial; constructor; trivial; split; simpl.
  - rewrite Ht in Hs. now inversion Hs.
  - rewrite Ht in *. inversion Hs as [|? ? _ Hall]; subst. intros h x [<-|Hh] Hx.
    + rewrite Forall_forall in Hall. now apply Hall.
    + apply Hlt; [assumption|now right].
  - constructor.
  - intros ? ? [].
Qed.

Lemma tinv_reach s0 s : init_ok s0 -> reach s0 s -> Forall tinv s.
Proof.
  intros H0 Hr. induction Hr as [|s s' s'' _ IH Hs]; [|exact (tinv_step _ _ (IH H0) Hs)].
  eapply Forall_impl; [|exact H0]. intros t [Hh Hs]. split; [assumption|]. rewrite Hh. intros ? ? [].
Qed.

Definition done (t:thread) := held t = [] /\ todo t = [].
Definition enabled (s:st) := exists s', step s s'.

Lemma exists_max_want s :
  Forall (fun t => todo t = []) s \/
  exists t m rest, In t s /\ todo t = m :: rest /\ forall u l r, In u s -> todo u = l :: r -> l <= m.
Proof.
  induction s as [|t s IH]; [left; constructor|].
  destruct (todo t) as [|l rest] eqn:Et.
  - destruct IH as [IH|(t' & m & rest & Hin & Em & Hmax)]; [left; constructor; assumption|].
    right. exists t', m, rest. repeat split; [now right|assumption|].
    intros u l r [<-|Hu] Eu; [congruence|eauto].
  - right. destruct IH as [IH|(t' & m & rest' & Hin & Em & Hmax)].
    + exists t, l, rest. repeat split; [now left|assumption|].
      intros u l' r [<-|Hu] Eu; [assert (l' = l) by congruence; lia|].
      rewrite Forall_forall in IH. rewrite (IH u Hu) in Eu. discriminate.
    + destruct (le_gt_dec l m).
      * exists t', m, rest'. repeat split; [now right|assumption|].
        intros u l' r [<-|Hu] Eu; [assert (l' = l) by congruence; lia|eauto].
      * exists t, l, rest. repeat split; [now left|assumption|].
        intros u l' r [<-|Hu] Eu; [assert (l' = l) by congruence; lia|].
        specialize (Hmax u l' r Hu Eu). lia.
Qed.

Lemma can_acquire s t l rest : In t s -> todo t = l :: rest -> ~ In l (all_held s) -> enabled s.
Proof. intros Hin Ht Hl. apply in_split in Hin as (pre & post & ->). eexists. eapply s_acq; eassumption. Qed.

Lemma can_release s t : In t s -> todo t = [] -> held t <> [] -> enabled s.
Proof. intros Hin Ht Hh. apply in_split in Hin as (pre & post & ->). eexists. now apply s_fin. Qed.

Lemma tinv_progress s : Forall tinv s -> Forall done s \/ enabled s.
Proof.
  intros Hinv. destruct (exists_max_want s) as [Hn|(t & m & rest & Ht & Et & Hmax)].
  - (* nobody wants anything *)
    rewrite Forall_forall in Hn.
    destruct (Forall_Exists_dec (fun t => held t = []) (fun t => list_eq_dec Nat.eq_dec (held t) []) s) as [Hall|Hex].
    + left. rewrite Forall_forall in *. intros t Ht. split; auto.
    + right. apply Exists_exists in Hex as (t & Hin & Hne). apply (can_release s t); auto.
  - (* t wants the largest wanted lock m *)
    right. destruct (in_dec Nat.eq_dec m (all_held s)) as [Hheld|Hfree]; [|eapply can_acquire; eassumption].
    apply in_flat_map in Hheld as (h & Hin & Hmh).
    destruct (todo h) as [|l' rest'] eqn:Eh.
    + (* the holder h of m has acquired all it wants: it can release *)
      apply (can_release s h); trivial. intros C. rewrite C in Hmh. destruct Hmh.
    + (* h wants l' > m, contradicting maximality *)
      exfalso. rewrite Forall_forall in Hinv. destruct (Hinv _ Hin) as [_ Hlt].
      assert (m < l') by (apply Hlt; [assumption| rewrite Eh; now left]).
      pose proof (Hmax _ _ _ Hin Eh). lia.
Qed.

Theorem ordered_no_deadlock s0 s :
  init_ok s0 -> reach s0 s -> Forall done s \/ enabled s.
Proof. intros H0 Hr. exact (tinv_progress s (tinv_reach s0 s H0 Hr)). Qed.
Print Assumptions ordered_no_deadlock.
