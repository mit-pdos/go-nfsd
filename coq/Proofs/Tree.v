(* The block map of an inode as an index tree over a disk.  A tree of level 0 is a data block, an index block of
   level S l holds NB pointers to trees of level l, pointer 0 (NULLBNUM) is the empty tree; the allocator is a
   list of free blocks.  [leaf] is the data block at an offset, [blocks] lists the blocks a tree is made of.
   [indbmap] follows inode.indbmap (inode/inode.go), [shrink_one] inode.indshrink (inode/shrink.go).  Each is
   specified by a record ([post], [spost]) and proved by induction on the level; the step at an index block is
   the same for both ([graft_spec]). *)
From Coq Require Import List Arith Lia Bool Permutation.
Import ListNotations.

Section Tree.
Variable NB : nat.
Hypothesis NBpos : 0 < NB.

Definition blockv := nat -> nat.
Definition disk := nat -> blockv.
Definition put (b:blockv) (i v:nat) : blockv := fun j => if Nat.eqb j i then v else b j.
Definition upd (d:disk) (a:nat) (b:blockv) : disk := fun a' => if Nat.eqb a' a then b else d a'.

Fixpoint pw (l:nat) : nat := match l with 0 => 1 | S l => NB * pw l end.
Lemma pw_pos l : 0 < pw l. Proof. induction l; simpl; nia. Qed.

Fixpoint leaf (d:disk) (lvl root off:nat) : nat :=
  match lvl with
  | 0 => root
  | S l => if Nat.eqb root 0 then 0 else leaf d l (d root (off / pw l)) (off mod pw l)
  end.

Fixpoint blocks (d:disk) (lvl root:nat) : list nat :=
  match lvl with
  | 0 => if Nat.eqb root 0 then [] else [root]
  | S l => if Nat.eqb root 0 then [] else root :: flat_map (fun i => blocks d l (d root i)) (seq 0 NB)
  end.

Definition alloc1 (fr:list nat) : nat * list nat := match fr with [] => (0, []) | b :: r => (b, r) end.
Definition ensure (root:nat) (fr:list nat) := if Nat.eqb root 0 then alloc1 fr else (root, fr).

Fixpoint indbmap (lvl root off:nat) (d:disk) (fr:list nat) : nat * nat * disk * list nat :=
  let '(root1, fr1) := ensure root fr in
  if Nat.eqb root1 0 then (0, 0, d, fr1) else
  match lvl with
  | 0 => (root1, root1, d, fr1)
  | S l =>
      let o := off / pw l in
      let nxt := d root1 o in
      let '(blk, newnxt, d1, fr2) := indbmap l nxt (off mod pw l) d fr1 in
      let d2 := if Nat.eqb newnxt nxt then d1 else upd d1 root1 (put (d1 root1) o newnxt) in
      (blk, root1, d2, fr2)
  end.

Definition agree_on (l:list nat) (d d':disk) := forall a, In a l -> forall i, d' a i = d a i.

Lemma flat_map_ext_in {A B} (f g:A -> list B) l : (forall a, In a l -> f a = g a) -> flat_map f l = flat_map g l.
Proof. intros H. rewrite !flat_map_concat_map. f_equal. now apply map_ext_in. Qed.

Lemma NoDup_app_iff {A} (a b:list A) : NoDup (a ++ b) <-> NoDup a /\ NoDup b /\ (forall x, In x a -> ~ In x b).
Proof.
  induction a as [|x a IH]; simpl.
  - split; [intros H; repeat split; auto; constructor| tauto].
  - rewrite !NoDup_cons_iff, IH, in_app_iff. firstorder (subst; auto).
Qed.

Lemma div_lt_pw l off : off < pw (S l) -> off / pw l < NB.
Proof. simpl. intros H. apply Nat.div_lt_upper_bound; [pose proof (pw_pos l); lia|]. nia. Qed.

Lemma mod_lt_pw l off : off mod pw l < pw l.
Proof. apply Nat.mod_upper_bound. pose proof (pw_pos l). lia. Qed.

Lemma blocks_zero d lvl : blocks d lvl 0 = [].
Proof. destruct lvl; reflexivity. Qed.
Lemma leaf_zero d lvl off : leaf d lvl 0 off = 0.
Proof. destruct lvl; reflexivity. Qed.

Lemma in_blocks_child d l root i a : root <> 0 -> i < NB -> In a (blocks d l (d root i)) -> In a (blocks d (S l) root).
Proof.
  intros Hr Hi Ha. simpl. apply Nat.eqb_neq in Hr. rewrite Hr. right.
  apply in_flat_map. exists i. split; [apply in_seq; lia|exact Ha].
Qed.

Lemma root_in_blocks d lvl root : root <> 0 -> In root (blocks d lvl root).
Proof. intros Hr. apply Nat.eqb_neq in Hr. destruct lvl; simpl; rewrite Hr; now left. Qed.

Lemma blocks_frame lvl : forall d d' root, agree_on (blocks d lvl root) d d' -> blocks d' lvl root = blocks d lvl root.
Proof.
  induction lvl as [|l IH]; intros d d' root H; simpl; [reflexivity|].
  destruct (Nat.eqb_spec root 0) as [|Hr]; [reflexivity|]. f_equal.
  apply flat_map_ext_in. intros i Hi. apply in_seq in Hi.
  rewrite (H root (root_in_blocks _ _ _ Hr)). apply IH.
  intros a Ha. apply H. apply (in_blocks_child d l root i a Hr); [lia|exact Ha].
Qed.

Lemma leaf_frame lvl : forall d d' root off, off < pw lvl ->
  agree_on (blocks d lvl root) d d' -> leaf d' lvl root off = leaf d lvl root off.
Proof.
  induction lvl as [|l IH]; intros d d' root off Ho H; simpl; [reflexivity|].
  destruct (Nat.eqb_spec root 0) as [|Hr]; [reflexivity|].
  rewrite (H root (root_in_blocks _ _ _ Hr)). apply IH; [apply mod_lt_pw|].
  intros a Ha. apply H. apply (in_blocks_child d l root (off / pw l) a Hr); [now apply div_lt_pw|exact Ha].
Qed.

(* a freshly allocated (all-zero) block is a tree with no other block *)
Lemma blocks_fresh d lvl b : b <> 0 -> (forall i, i < NB -> d b i = 0) -> blocks d lvl b = [b].
Proof.
  intros Hb Hz. apply Nat.eqb_neq in Hb. destruct lvl; simpl; rewrite Hb; [reflexivity|]. f_equal.
  apply incl_l_nil. intros a Ha. apply in_flat_map in Ha as (i & Hi & Ha). apply in_seq in Hi.
  rewrite Hz, blocks_zero in Ha by lia. exact Ha.
Qed.
Lemma leaf_fresh d l b off : off < pw (S l) -> (forall i, i < NB -> d b i = 0) -> leaf d (S l) b off = 0.
Proof. intros Ho Hz. simpl. destruct (Nat.eqb b 0); [reflexivity|]. rewrite Hz by now apply div_lt_pw. apply leaf_zero. Qed.

(* the pointers of an index block other than pointer o *)
Definition others (o:nat) : list nat := seq 0 o ++ seq (S o) (NB - S o).
Definition kids (d:disk) (l root:nat) (is:list nat) := flat_map (fun i => blocks d l (d root i)) is.

Lemma in_others o i : o < NB -> In i (others o) <-> i < NB /\ i <> o.
Proof. intros Ho. unfold others. rewrite in_app_iff, !in_seq. lia. Qed.

Lemma seq_pick o : o < NB -> Permutation (seq 0 NB) (o :: others o).
Proof.
  intros Ho. unfold others. rewrite Permutation_middle.
  replace NB with (o + S (NB - S o)) at 1 by lia. rewrite seq_app. reflexivity.
Qed.

Lemma blocks_child d l root o fr : root <> 0 -> o < NB ->
  Permutation (blocks d (S l) root ++ fr) (root :: kids d l root (others o) ++ blocks d l (d root o) ++ fr).
Proof.
  intros Hr Ho. simpl. apply Nat.eqb_neq in Hr. rewrite Hr. constructor. rewrite app_assoc. apply Permutation_app_tail.
  rewrite (seq_pick o Ho). apply Permutation_app_comm.
Qed.

Definition free_zero (d:disk) (fr:list nat) := forall b, In b fr -> forall i, d b i = 0.

(* Both operations call themselves on child o of an index block root and get back a new pointer c', a disk d1
   and a free list fr1; they store c' in place of the old pointer unless it is the same. *)
Definition graft (d1:disk) (root o old c':nat) : disk :=
  if Nat.eqb c' old then d1 else upd d1 root (put (d1 root) o c').

Lemma graft_eq d1 root o old c' : d1 root o = old -> forall a i,
  graft d1 root o old c' a i = if Nat.eqb a root && Nat.eqb i o then c' else d1 a i.
Proof.
  intros <- a i. unfold graft, upd, put.
  destruct (Nat.eqb_spec c' (d1 root o)) as [->|], (Nat.eqb_spec a root) as [->|], (Nat.eqb_spec i o) as [->|]; reflexivity.
Qed.

(* The step at an index block, shared by both operations.  The precondition passes down to child o.  If the
   recursive call wrote only inside the old subtree and a part X of the free list (all of it for indbmap, which
   fills the index blocks it takes from there; none of it for shrink_one), and the blocks of the new subtree with
   the new free list are those of the old subtree with the old free list, then after the graft root points to the
   new subtree, which reads as in d1, every other offset reads as before, and permutation, zero free blocks and
   frame hold one level up. *)
Lemma graft_spec l root o d fr :
  root <> 0 -> o < NB -> NoDup (blocks d (S l) root ++ fr) ->
  NoDup (blocks d l (d root o) ++ fr) /\
  forall X c' d1 fr1, incl X fr ->
  (forall a, ~ In a (blocks d l (d root o) ++ X) -> forall i, d1 a i = d a i) ->
  Permutation (blocks d1 l c' ++ fr1) (blocks d l (d root o) ++ fr) ->
  free_zero d1 fr1 ->
  let d2 := graft d1 root o (d root o) c' in
  (forall i, d2 root i = if Nat.eqb i o then c' else d root i) /\
  agree_on (blocks d1 l c') d1 d2 /\
  (forall off, off < pw (S l) -> leaf d2 (S l) root off =
     if Nat.eqb (off / pw l) o then leaf d1 l c' (off mod pw l) else leaf d (S l) root off) /\
  Permutation (blocks d2 (S l) root ++ fr1) (blocks d (S l) root ++ fr) /\
  free_zero d2 fr1 /\
  (forall a, ~ In a (blocks d (S l) root ++ X) -> forall i, d2 a i = d a i).
Proof.
  intros Hr Ho ND. apply (Permutation_NoDup (blocks_child d l root o fr Hr Ho)) in ND.
  apply NoDup_cons_iff in ND as [Hroot ND]. apply NoDup_app_iff in ND as (_ & ND & Dis).
  (* Hroot: block root lies in no subtree and is not free; Dis: the sibling subtrees share nothing with child o's
     subtree and the free list *)
  split; [exact ND|]. intros X c' d1 fr1 HX Fr Pm Fz d2.
  assert (HW: incl (blocks d l (d root o) ++ X) (blocks d l (d root o) ++ fr)).
  { apply incl_app_app; [apply incl_refl|exact HX]. }
  assert (Er: forall i, d1 root i = d root i).
  { intros i. apply Fr. intros C. apply Hroot, in_or_app. right. now apply HW. }
  pose proof (graft_eq d1 root o (d root o) c' (Er o)) as G. fold d2 in G.
  assert (R: forall i, d2 root i = if Nat.eqb i o then c' else d root i).
  { intros i. rewrite G, Nat.eqb_refl, Er. reflexivity. }
  assert (F: forall a, a <> root -> forall i, d2 a i = d1 a i).
  { intros a Ha i. rewrite G. apply Nat.eqb_neq in Ha. now rewrite Ha. }
  assert (Hnew: forall a, In a (blocks d1 l c' ++ fr1) -> a <> root).
  { intros a Ha ->. apply Hroot, in_or_app. right. now apply (Permutation_in _ Pm). }
  assert (A: agree_on (blocks d1 l c') d1 d2).
  { intros a Ha. apply F, Hnew, in_or_app. now left. }
  assert (Sib: forall i, i < NB -> i <> o -> agree_on (blocks d l (d root i)) d d2).
  { intros i Hi Hne a Ha j.
    assert (Hin: In a (kids d l root (others o))).
    { apply in_flat_map. exists i. split; [now apply in_others|exact Ha]. }
    rewrite F by (intros ->; apply Hroot, in_or_app; now left). apply Fr. intros C. now apply (Dis a Hin), HW. }
  repeat split; auto.
  - intros off Hoff. simpl. apply Nat.eqb_neq in Hr as ->. rewrite R.
    destruct (Nat.eqb_spec (off / pw l) o) as [E|E]; (apply leaf_frame; [apply mod_lt_pw|]); [exact A|].
    apply Sib; [now apply div_lt_pw|exact E].
  - rewrite (blocks_child d2 l root o fr1 Hr Ho), (blocks_child d l root o fr Hr Ho).
    rewrite R, Nat.eqb_refl, (blocks_frame l d1 d2 c' A).
    replace (kids d2 l root (others o)) with (kids d l root (others o)).
    + constructor. apply Permutation_app_head. exact Pm.
    + apply flat_map_ext_in. intros i Hi. apply (in_others o i Ho) in Hi as [Hi Hne]. rewrite R.
      apply Nat.eqb_neq in Hne as E. rewrite E. symmetry. apply blocks_frame. now apply Sib.
  - intros b Hb i. rewrite F; [now apply Fz|]. apply Hnew, in_or_app. now right.
  - intros a Ha i. rewrite F; [apply Fr|]; intros C; apply Ha, in_or_app.
    + apply in_app_or in C as [C|C]; [left; now apply (in_blocks_child d l root o)|now right].
    + left. rewrite C. now apply root_in_blocks.
Qed.

Record post (lvl root off:nat) (d:disk) (fr:list nat) (blk root':nat) (d':disk) (fr':list nat) : Prop := {
  q_hit   : blk <> 0 -> leaf d' lvl root' off = blk;
  q_other : forall off', off' < pw lvl -> off' <> off -> leaf d' lvl root' off' = leaf d lvl root off';
  q_perm  : Permutation (blocks d' lvl root' ++ fr') (blocks d lvl root ++ fr);
  q_fz    : free_zero d' fr';
  q_frame : forall a, ~ In a (blocks d lvl root ++ fr) -> forall i, d' a i = d a i;
  q_root  : root <> 0 -> root' = root;
  q_keep  : leaf d lvl root off <> 0 -> blk = leaf d lvl root off
}.

Definition spec_at (lvl:nat) := forall root off d fr,
  off < pw lvl -> NoDup (blocks d lvl root ++ fr) -> free_zero d fr -> ~ In 0 fr ->
  let '(blk, root', d', fr') := indbmap lvl root off d fr in
  post lvl root off d fr blk root' d' fr'.

(* the outcome when nothing is allocated and nothing written *)
Lemma post_refl lvl root off d fr blk :
  blk = leaf d lvl root off -> free_zero d fr -> post lvl root off d fr blk root d fr.
Proof. intros -> FZ. now constructor. Qed.

(* the outcome for root 0 and free list b :: fr is the outcome for a root b that is a tree of one block *)
Lemma post_alloc lvl b off d fr blk root' d' fr' :
  blocks d lvl b = [b] -> (forall off', off' < pw lvl -> off' <> off -> leaf d lvl b off' = 0) ->
  post lvl b off d fr blk root' d' fr' -> post lvl 0 off d (b :: fr) blk root' d' fr'.
Proof.
  intros Hb Hl [Qhit Qoth Qperm Qfz Qframe _ _]. rewrite Hb in *.
  constructor; rewrite ?blocks_zero, ?leaf_zero; try easy.
  intros off' Ho' Hne. rewrite Qoth, Hl by assumption. symmetry. apply leaf_zero.
Qed.

Lemma indbmap_alloc lvl off d b fr : b <> 0 -> indbmap lvl 0 off d (b :: fr) = indbmap lvl b off d fr.
Proof. intros Hb. apply Nat.eqb_neq in Hb. destruct lvl; cbn [indbmap]; unfold ensure; simpl; rewrite !Hb; reflexivity. Qed.

Lemma indbmap_nofree lvl off d : indbmap lvl 0 off d [] = (0, 0, d, []).
Proof. destruct lvl; reflexivity. Qed.

Definition spec_root (lvl root:nat) := forall off d fr,
  off < pw lvl -> NoDup (blocks d lvl root ++ fr) -> free_zero d fr -> ~ In 0 fr ->
  let '(blk, root', d', fr') := indbmap lvl root off d fr in
  post lvl root off d fr blk root' d' fr'.

(* root 0: the head of the free list, if there is one, becomes the root *)
Lemma spec_alloc_root lvl : (forall root, root <> 0 -> spec_root lvl root) -> spec_at lvl.
Proof.
  intros H root off d fr Ho ND FZ N0. destruct (Nat.eq_dec root 0) as [->|Hr]; [|now apply H].
  destruct fr as [|b fr].
  - rewrite indbmap_nofree. apply post_refl; [symmetry; apply leaf_zero|exact FZ].
  - assert (Hb: b <> 0) by (intros ->; apply N0; now left).
    assert (Zb: forall i, i < NB -> d b i = 0) by (intros; apply FZ; now left).
    rewrite (indbmap_alloc lvl off d b fr Hb). rewrite blocks_zero in ND.
    specialize (H b Hb off d fr Ho). rewrite (blocks_fresh d lvl b Hb Zb) in H.
    specialize (H ND (fun x Hx => FZ x (or_intror Hx)) (fun C => N0 (or_intror C))).
    destruct (indbmap lvl b off d fr) as [[[blk root'] d'] fr'].
    apply post_alloc; [now apply blocks_fresh| |exact H].
    intros off' Ho' Hne. destruct lvl; [simpl in Ho, Ho'; lia|now apply leaf_fresh].
Qed.

Lemma spec_nonzero l (IH: spec_at l) root : root <> 0 -> spec_root (S l) root.
Proof.
  intros Hr off d fr Ho ND FZ N0. apply Nat.eqb_neq in Hr as Hrb.
  cbn [indbmap]. unfold ensure. rewrite Hrb. cbn iota beta. rewrite Hrb.
  pose proof (div_lt_pw l off Ho) as Hdiv.
  set (o := off / pw l) in *. set (ind := off mod pw l).
  destruct (graft_spec l root o d fr Hr Hdiv ND) as [NDc G].
  specialize (IH (d root o) ind d fr (mod_lt_pw l off) NDc FZ N0).
  destruct (indbmap l (d root o) ind d fr) as [[[blk c'] d1] fr1].
  destruct IH as [Qhit Qoth Qperm Qfz Qframe _ Qkeep].
  fold (graft d1 root o (d root o) c').
  destruct (G fr c' d1 fr1 (incl_refl _) Qframe Qperm Qfz) as (_ & _ & L & P & Z & F).
  constructor.
  - intros Hblk. rewrite L by exact Ho. fold o. rewrite Nat.eqb_refl. auto.
  - intros off' Ho' Hne. rewrite L by exact Ho'.
    destruct (Nat.eqb_spec (off' / pw l) o) as [E|E]; [|reflexivity].
    simpl. rewrite Hrb, E. apply Qoth; [apply mod_lt_pw|].
    intros C. apply Hne. rewrite (Nat.div_mod_eq off' (pw l)), (Nat.div_mod_eq off (pw l)). fold o ind. now rewrite E, C.
  - exact P.
  - exact Z.
  - exact F.
  - reflexivity.
  - simpl. rewrite Hrb. exact Qkeep.
Qed.

Theorem indbmap_spec lvl : spec_at lvl.
Proof.
  induction lvl as [|l IH]; apply spec_alloc_root; intros root Hr; [|now apply spec_nonzero].
  intros off d fr _ _ FZ _. apply Nat.eqb_neq in Hr. simpl. unfold ensure. rewrite Hr. cbn iota beta. rewrite Hr.
  now apply post_refl.
Qed.

Definition zerob : blockv := fun _ => 0.

(* indshrink combined with what its caller does with the returned root:
   frees logical block bn of the subtree and every index block that becomes empty;
   returns the new pointer to store in the parent (0 if the whole subtree is gone) *)
Fixpoint shrink_one (lvl root bn:nat) (d:disk) (fr:list nat) : nat * disk * list nat :=
  if Nat.eqb root 0 then (0, d, fr) else
  match lvl with
  | 0 => (0, upd d root zerob, root :: fr)
  | S l =>
      let off := bn / pw l in
      let ind := bn mod pw l in
      let nxt := d root off in
      let '(c', d1, fr1) := shrink_one l nxt ind d fr in
      let d2 := if Nat.eqb c' nxt then d1 else upd d1 root (put (d1 root) off 0) in
      if Nat.eqb off 0 && Nat.eqb ind 0 then (0, upd d2 root zerob, root :: fr1) else (root, d2, fr1)
  end.

(* everything above logical block bn has already been cleared *)
Fixpoint trimmed (d:disk) (lvl root bn:nat) : Prop :=
  match lvl with
  | 0 => True
  | S l => root <> 0 ->
           (forall i, bn / pw l < i -> i < NB -> d root i = 0) /\
           trimmed d l (d root (bn / pw l)) (bn mod pw l)
  end.

Lemma trimmed_zero d lvl bn : trimmed d lvl 0 bn.
Proof. destruct lvl; simpl; [exact I|]. intros H; now elim H. Qed.

Lemma trimmed_at d l root q r : r < pw l ->
  (root <> 0 -> (forall i, q < i -> i < NB -> d root i = 0) /\ trimmed d l (d root q) r) ->
  trimmed d (S l) root (pw l * q + r).
Proof.
  intros Hr H. cbn [trimmed].
  rewrite <- (Nat.div_unique (pw l * q + r) (pw l) q r), <- (Nat.mod_unique (pw l * q + r) (pw l) q r); auto.
Qed.

Lemma trimmed_last lvl : forall d root, trimmed d lvl root (pw lvl - 1).
Proof.
  induction lvl as [|l IH]; intros d root; [exact I|]. pose proof (pw_pos l) as Hp.
  replace (pw (S l) - 1) with (pw l * (NB - 1) + (pw l - 1)) by (simpl; nia).
  apply trimmed_at; [lia|]. intros _. split; [intros; lia|apply IH].
Qed.

Lemma trimmed_frame lvl : forall d d' root bn, bn < pw lvl ->
  agree_on (blocks d lvl root) d d' -> trimmed d lvl root bn -> trimmed d' lvl root bn.
Proof.
  induction lvl as [|l IH]; intros d d' root bn Hb Ag T; [exact I|]. cbn [trimmed] in *. intros Hr.
  destruct (T Hr) as [T1 T2]. pose proof (Ag root (root_in_blocks _ _ _ Hr)) as Er. split.
  - intros i H1 H2. rewrite Er. now apply T1.
  - rewrite Er. apply (IH d d'); [apply mod_lt_pw| |exact T2].
    intros a Ha. apply Ag. apply (in_blocks_child d l root (bn / pw l) a Hr); [now apply div_lt_pw|exact Ha].
Qed.

Record spost (lvl root bn:nat) (d:disk) (fr:list nat) (root':nat) (d':disk) (fr':list nat) : Prop := {
  p_root : root' = if Nat.eqb bn 0 then 0 else root;
  p_leaf : forall off', off' < pw lvl -> leaf d' lvl root' off' = if off' <? bn then leaf d lvl root off' else 0;
  p_perm : Permutation (blocks d' lvl root' ++ fr') (blocks d lvl root ++ fr);
  p_fz : free_zero d' fr';
  p_frame : forall a, ~ In a (blocks d lvl root) -> forall i, d' a i = d a i;
  p_trim : 0 < bn -> trimmed d' lvl root' (bn - 1)
}.

Definition sspec_at (lvl:nat) := forall root bn d fr,
  bn < pw lvl -> NoDup (blocks d lvl root ++ fr) -> free_zero d fr -> trimmed d lvl root bn ->
  let '(root', d', fr') := shrink_one lvl root bn d fr in
  spost lvl root bn d fr root' d' fr'.

Lemma spost_root0 lvl bn d fr : free_zero d fr -> spost lvl 0 bn d fr 0 d fr.
Proof.
  intros FZ. constructor.
  - destruct (Nat.eqb bn 0); reflexivity.
  - intros off' _. rewrite leaf_zero. destruct (off' <? bn); reflexivity.
  - apply Permutation_refl.
  - exact FZ.
  - intros; reflexivity.
  - intros _. apply trimmed_zero.
Qed.

Lemma shrink_one_root0 lvl bn d fr : shrink_one lvl 0 bn d fr = (0, d, fr).
Proof. destruct lvl; reflexivity. Qed.

(* the last step of freeing a whole subtree: once only its root block is left, that block is zeroed and freed *)
Lemma spost_free lvl root d fr d2 fr1 : root <> 0 ->
  Permutation (root :: fr1) (blocks d lvl root ++ fr) -> free_zero d2 fr1 ->
  (forall a, ~ In a (blocks d lvl root) -> forall i, d2 a i = d a i) ->
  spost lvl root 0 d fr 0 (upd d2 root zerob) (root :: fr1).
Proof.
  intros Hr Pm Fz Fr. constructor.
  - reflexivity.
  - intros off' _. apply leaf_zero.
  - rewrite blocks_zero. exact Pm.
  - intros b Hb i. unfold upd. destruct (Nat.eqb_spec b root) as [|Hne]; [reflexivity|].
    destruct Hb as [Hb|Hb]; [now elim Hne|now apply Fz].
  - intros a Ha i. unfold upd. destruct (Nat.eqb_spec a root) as [->|]; [|now apply Fr].
    elim Ha. now apply root_in_blocks.
  - intros H. inversion H.
Qed.

Lemma sspec_level0 : sspec_at 0.
Proof.
  intros root bn d fr Hb ND FZ _. simpl in Hb. assert (bn = 0) by lia. subst bn.
  destruct (Nat.eq_dec root 0) as [->|Hr]; [now apply spost_root0|].
  simpl. apply Nat.eqb_neq in Hr as Hrb. rewrite Hrb.
  apply spost_free; simpl; rewrite ?Hrb; auto.
Qed.

(* offsets compare as the pairs (pointer number, offset below it) *)
Lemma ltb_divmod p a b : 0 < p ->
  (a <? b) = if Nat.eqb (a / p) (b / p) then a mod p <? b mod p else a / p <? b / p.
Proof.
  intros Hp. pose proof (Nat.div_mod_eq a p). pose proof (Nat.div_mod_eq b p).
  pose proof (Nat.mod_upper_bound a p). pose proof (Nat.mod_upper_bound b p).
  destruct (Nat.eqb_spec (a / p) (b / p)); apply Bool.eq_iff_eq_true; rewrite !Nat.ltb_lt; nia.
Qed.

Lemma divmod_eqb0 p n : 0 < p -> Nat.eqb (n / p) 0 && Nat.eqb (n mod p) 0 = Nat.eqb n 0.
Proof.
  intros Hp. pose proof (Nat.div_mod_eq n p).
  apply Bool.eq_iff_eq_true. rewrite andb_true_iff, !Nat.eqb_eq. nia.
Qed.

Lemma sspec_step l (IH: sspec_at l) : sspec_at (S l).
Proof.
  intros root bn d fr Hb ND FZ TR.
  destruct (Nat.eq_dec root 0) as [->|Hr]; [rewrite shrink_one_root0; now apply spost_root0|].
  pose proof (div_lt_pw l bn Hb) as Hdiv. pose proof (pw_pos l) as Hpw. pose proof (mod_lt_pw l bn) as Hmod.
  pose proof (Nat.div_mod_eq bn (pw l)) as Hbn.
  cbn [shrink_one]. apply Nat.eqb_neq in Hr as Hrb. rewrite Hrb, (divmod_eqb0 (pw l) bn Hpw).
  destruct (TR Hr) as [TR1 TR2].
  set (o := bn / pw l) in *. set (ind := bn mod pw l) in *.
  destruct (graft_spec l root o d fr Hr Hdiv ND) as [NDc G].
  specialize (IH (d root o) ind d fr Hmod NDc FZ TR2).
  destruct (shrink_one l (d root o) ind d fr) as [[c' d1] fr1].
  destruct IH as [Qroot Qleaf Qperm Qfz Qframe Qtrim].
  (* the pointer stored is 0, which is c' whenever c' is not the old pointer *)
  replace (if Nat.eqb c' (d root o) then d1 else upd d1 root (put (d1 root) o 0)) with (graft d1 root o (d root o) c').
  2:{ unfold graft. rewrite Qroot. destruct (Nat.eqb ind 0); [reflexivity|now rewrite Nat.eqb_refl]. }
  rewrite <- (app_nil_r (blocks d l (d root o))) in Qframe.
  destruct (G [] c' d1 fr1 (incl_nil_l fr) Qframe Qperm Qfz) as (R & A & L & P & Z & F).
  rewrite app_nil_r in F. set (d2 := graft d1 root o (d root o) c') in *.
  assert (Hz: forall i, i < NB -> o < i \/ i = o /\ ind = 0 -> d2 root i = 0).
  { intros i Hi Hc. rewrite R. destruct (Nat.eqb_spec i o) as [->|]; [|apply TR1; lia].
    rewrite Qroot. destruct Hc as [|[_ ->]]; [lia|reflexivity]. }
  destruct (Nat.eqb_spec bn 0) as [E0|E0].
  - (* bn = 0: the child is gone, no other is left, the index block itself is freed *)
    assert (o = 0 /\ ind = 0) as [Eo Ei] by nia. rewrite E0. apply spost_free; auto.
    rewrite <- P, (blocks_fresh d2 (S l) root Hr); [reflexivity|]. intros i Hi. apply Hz; lia.
  - (* bn > 0: the index block stays *)
    constructor.
    + apply Nat.eqb_neq in E0. now rewrite E0.
    + intros off' Ho'. rewrite L by exact Ho'. rewrite (ltb_divmod (pw l) off' bn Hpw). fold o ind.
      simpl. rewrite Hrb. destruct (Nat.eqb_spec (off' / pw l) o) as [E|E].
      * rewrite E. apply Qleaf, mod_lt_pw.
      * destruct (Nat.ltb_spec (off' / pw l) o); [reflexivity|].
        rewrite TR1, leaf_zero; [reflexivity|lia|now apply div_lt_pw].
    + exact P.
    + exact Z.
    + exact F.
    + intros _. destruct (Nat.eq_dec ind 0) as [Ei|Ei].
      * (* bn - 1 is the last block under the previous child *)
        assert (o <> 0) by nia. replace (bn - 1) with (pw l * (o - 1) + (pw l - 1)) by nia.
        apply trimmed_at; [lia|]. intros _. split; [|apply trimmed_last]. intros i Hi1 Hi2. apply Hz; lia.
      * replace (bn - 1) with (pw l * o + (ind - 1)) by lia.
        apply trimmed_at; [lia|]. intros _. split; [intros i Hi1 Hi2; apply Hz; lia|].
        rewrite R, Nat.eqb_refl. apply (trimmed_frame l d1 d2); [lia|exact A|]. apply Qtrim. lia.
Qed.

Theorem shrink_one_spec lvl : sspec_at lvl.
Proof. induction lvl as [|l IH]; [apply sspec_level0|now apply sspec_step]. Qed.
End Tree.
Print Assumptions shrink_one_spec.
