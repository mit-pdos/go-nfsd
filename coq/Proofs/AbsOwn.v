(* What an empty ownership report (`Abs.own_errors`, part of the `r_errs` of `abs_disk` that the documents call
   wf_disk) means (clauses "no block belongs to two owners", "every block in
   use is marked in use", and its converse, of C04/C05), for arbitrary lists of owned and marked blocks. *)
From stdpp Require Import gmap.
From V Require Import Model.Lib Model.Abs Proofs.LibFacts.
Open Scope N_scope.

Section Sets.
Context `{Countable K}.
Implicit Types (x y : K) (s : gset K) (l : list K).

Lemma elem_of_fold_gs_add l : forall s y, y ∈ fold_left (fun s x => gs_add x s) l s <-> y ∈ l \/ y ∈ s.
Proof.
  induction l as [|x r IH]; intros s y; simpl.
  - rewrite elem_of_nil. tauto.
  - rewrite IH, elem_of_gs_add, elem_of_cons. tauto.
Qed.

Lemma elem_of_gs_of_list l y : y ∈ gs_of_list l <-> y ∈ l.
Proof. unfold gs_of_list. rewrite elem_of_fold_gs_add, elem_of_empty. tauto. Qed.

Lemma gs_of_list_to_set l : gs_of_list l = list_to_set l.
Proof. apply set_eq. intros y. rewrite elem_of_gs_of_list, elem_of_list_to_set. reflexivity. Qed.

Lemma size_list_to_set_NoDup l :
  (size (list_to_set l : gset K) <= length l)%nat /\ (length l = size (list_to_set l : gset K) -> NoDup l).
Proof.
  induction l as [|x r [Le IH]]; cbn [length].
  - rewrite list_to_set_nil, size_empty. split; [lia|constructor].
  - rewrite list_to_set_cons. destruct (decide (x ∈ r)) as [Hin|Hnin].
    + replace ({[x]} ∪ list_to_set r : gset K) with (list_to_set r : gset K) by set_solver. split; lia.
    + rewrite size_union, size_singleton by set_solver. split; [lia|].
      intros E. constructor; [exact Hnin|apply IH; lia].
Qed.
End Sets.

Lemma omap_nil_None {A B} (f : A -> option B) xs x : omap f xs = [] -> x ∈ xs -> f x = None.
Proof.
  intros E Hx. destruct (f x) as [y|] eqn:F; [|reflexivity].
  assert (Hy : y ∈ omap f xs) by (apply elem_of_list_omap; eauto). rewrite E in Hy. inversion Hy.
Qed.

(* the duplicate scan: nothing reported means no duplicates, and none of the elements had been seen *)
Lemma dup_errors_nil xs : forall seen, dup_errors xs seen = [] -> NoDup xs /\ forall x, x ∈ xs -> x ∉ seen.
Proof.
  induction xs as [|x r IH]; intros seen H; simpl in H.
  - split; [constructor|intros x Hx; inversion Hx].
  - case_bool_decide as E; [discriminate|]. destruct (IH _ H) as [ND Hs]. split.
    + constructor; [|exact ND]. intros Hin. apply (Hs x Hin). apply elem_of_gs_add. auto.
    + intros y Hy. apply elem_of_cons in Hy as [->|Hy]; [exact E|].
      intros Hys. apply (Hs y Hy). apply elem_of_gs_add. auto.
Qed.

Theorem own_errors_nil l owned used :
  own_errors l owned used = [] ->
  NoDup owned /\
  (forall b, b ∈ owned -> in_data l b = true -> b ∈ used) /\
  (forall b, b ∈ used -> b ∈ owned).
Proof.
  unfold own_errors. intros H. apply app_eq_nil in H as [H1 H2]. apply app_eq_nil in H2 as [H2 H3].
  split; [|split].
  - (* the model scans for duplicates only when the list is longer than its set of elements *)
    destruct (Nat.eqb_spec (length owned) (size (gs_of_list owned))) as [E|_].
    + rewrite gs_of_list_to_set in E. apply size_list_to_set_NoDup, E.
    + apply (dup_errors_nil owned ∅ H1).
  - intros b Hb Hd. apply (omap_nil_None _ _ b H2) in Hb. rewrite Hd in Hb.
    case_bool_decide as E; [|discriminate]. apply elem_of_gs_of_list, E.
  - intros b Hb. apply (omap_nil_None _ _ b H3) in Hb.
    case_bool_decide as E; [|discriminate]. apply elem_of_gs_of_list, E.
Qed.
