(* LM, two-phase locking: threads run transactions (programs that acquire locks, read and write locations under the
   lock that guards them, and commit or abort); writes stay in the transaction's buffer until its commit step
   publishes them and drops its locks.  Every interleaving amounts to running the transactions one at a time, in the
   order in which they finished.
   The invariant: what an active thread has done so far is what its program does on the present store, since it
   holds the guards of all it has accessed (fp) and so no other thread's commit touches those locations. *)
From Coq Require Import List Arith.
Import ListNotations.

Section TwoPL.
Variable guard : nat -> nat.           (* location -> lock that protects it *)

Definition store := nat -> nat.
Definition buf := list (nat * nat).    (* newest first *)
Fixpoint blookup (b:buf) (x:nat) : option nat :=
  match b with [] => None | (y,v)::r => if Nat.eqb y x then Some v else blookup r x end.
Definition rd (s:store) (b:buf) (x:nat) : nat := match blookup b x with Some v => v | None => s x end.
Definition apply (b:buf) (s:store) : store := fun x => rd s b x.

Inductive prog :=
| PAcq (l:nat) (k:prog)
| PRead (x:nat) (k:nat -> prog)
| PWrite (x v:nat) (k:prog)
| PCommit (r:nat)
| PAbort (r:nat).

Inductive outcome := OCommit (b:buf) (r:nat) | OAbort (r:nat).

(* the sequential meaning of a transaction: run it alone on a store *)
Fixpoint run (s:store) (b:buf) (p:prog) : outcome :=
  match p with
  | PAcq _ k => run s b k
  | PRead x k => run s b (k (rd s b x))
  | PWrite x v k => run s ((x,v)::b) k
  | PCommit r => OCommit b r
  | PAbort r => OAbort r
  end.

Fixpoint exec (n:nat) (s:store) (b:buf) (p:prog) : option (buf * prog) :=
  match n with O => Some (b,p) | S n =>
    match p with
    | PAcq _ k => exec n s b k
    | PRead x k => exec n s b (k (rd s b x))
    | PWrite x v k => exec n s ((x,v)::b) k
    | _ => None end end.

Fixpoint fp (n:nat) (s:store) (b:buf) (p:prog) : list nat :=
  match n with O => [] | S n =>
    match p with
    | PAcq _ k => fp n s b k
    | PRead x k => x :: fp n s b (k (rd s b x))
    | PWrite x v k => x :: fp n s ((x,v)::b) k
    | _ => [] end end.

Lemma rd_agree s s' b x : s' x = s x -> rd s' b x = rd s b x.
Proof. unfold rd. destruct (blookup b x); auto. Qed.

Lemma agree n : forall s s' b p, (forall x, In x (fp n s b p) -> s' x = s x) ->
  exec n s' b p = exec n s b p /\ fp n s' b p = fp n s b p.
Proof.
  induction n as [|n IH]; intros s s' b p H; simpl; [auto|].
  destruct p as [l k|x k|x v k|r|r]; simpl in *; auto.
  - assert (E: rd s' b x = rd s b x) by (apply rd_agree, H; now left). rewrite E.
    destruct (IH s s' b (k (rd s b x))) as [A B]; [intros; apply H; now right|]. rewrite A, B. auto.
  - destruct (IH s s' ((x,v)::b) k) as [A B]; [intros; apply H; now right|]. rewrite A, B. auto.
Qed.

Lemma run_exec n : forall s b p b' p', exec n s b p = Some (b',p') -> run s b p = run s b' p'.
Proof.
  induction n as [|n IH]; intros s b p b' p' H; simpl in H; [now injection H as <- <-|].
  destruct p; simpl; try discriminate; eauto.
Qed.

Lemma exec_add n m : forall s b p,
  exec (n + m) s b p = match exec n s b p with Some (b',p') => exec m s b' p' | None => None end /\
  fp (n + m) s b p = fp n s b p ++ match exec n s b p with Some (b',p') => fp m s b' p' | None => [] end.
Proof.
  induction n as [|n IH]; intros s b p; [auto|].
  destruct p as [l k|x k|x v k|r|r]; simpl; auto.
  - destruct (IH s b (k (rd s b x))) as [A B]. rewrite A, B. auto.
  - destruct (IH s ((x,v)::b) k) as [A B]. rewrite A, B. auto.
Qed.

Lemma buf_in_fp n : forall s b p b' p', exec n s b p = Some (b',p') ->
  forall x v, In (x,v) b' -> In (x,v) b \/ In x (fp n s b p).
Proof.
  induction n as [|n IH]; intros s b p b' p' H x v Hin; [injection H as <- <-; auto|].
  destruct p as [l k|y k|y w k|r|r]; try discriminate; simpl in *;
    destruct (IH _ _ _ _ _ H _ _ Hin) as [Hb|Hf]; auto.
  destruct Hb as [[= <- <-]|Hb]; auto.
Qed.

Record thread := { p0 : prog; nst : nat; cur : prog; tb : buf; held : list nat; fin : option nat }.
Record state := { sto : store; thr : list thread; order : list (prog * nat) }.

Definition active (t:thread) := fin t = None.
Definition all_held (ts:list thread) := flat_map held ts.

Inductive step : state -> state -> Prop :=
| st_acq s pre t post l k :
    active t -> cur t = PAcq l k -> ~ In l (all_held (pre ++ t :: post)) ->
    thr s = pre ++ t :: post ->
    step s {| sto := sto s; order := order s;
              thr := pre ++ {| p0 := p0 t; nst := S (nst t); cur := k; tb := tb t; held := l :: held t; fin := None |} :: post |}
| st_read s pre t post x k :
    active t -> cur t = PRead x k -> In (guard x) (held t) ->
    thr s = pre ++ t :: post ->
    step s {| sto := sto s; order := order s;
              thr := pre ++ {| p0 := p0 t; nst := S (nst t); cur := k (rd (sto s) (tb t) x); tb := tb t; held := held t; fin := None |} :: post |}
| st_write s pre t post x v k :
    active t -> cur t = PWrite x v k -> In (guard x) (held t) ->
    thr s = pre ++ t :: post ->
    step s {| sto := sto s; order := order s;
              thr := pre ++ {| p0 := p0 t; nst := S (nst t); cur := k; tb := (x,v) :: tb t; held := held t; fin := None |} :: post |}
| st_commit s pre t post r :
    active t -> cur t = PCommit r ->
    thr s = pre ++ t :: post ->
    step s {| sto := apply (tb t) (sto s); order := order s ++ [(p0 t, r)];
              thr := pre ++ {| p0 := p0 t; nst := nst t; cur := cur t; tb := []; held := []; fin := Some r |} :: post |}
| st_abort s pre t post r :
    active t -> cur t = PAbort r ->
    thr s = pre ++ t :: post ->
    step s {| sto := sto s; order := order s ++ [(p0 t, r)];
              thr := pre ++ {| p0 := p0 t; nst := nst t; cur := cur t; tb := []; held := []; fin := Some r |} :: post |}.

(* serial execution of a list of (program, observed result) from s0 *)
Inductive serial (s0:store) : list (prog*nat) -> store -> Prop :=
| ser_nil : serial s0 [] s0
| ser_commit o s p b r : serial s0 o s -> run s [] p = OCommit b r -> serial s0 (o ++ [(p,r)]) (apply b s)
| ser_abort o s p r : serial s0 o s -> run s [] p = OAbort r -> serial s0 (o ++ [(p,r)]) s.

Definition tinv (s:store) (t:thread) : Prop :=
  active t ->
  exec (nst t) s [] (p0 t) = Some (tb t, cur t) /\
  forall x, In x (fp (nst t) s [] (p0 t)) -> In (guard x) (held t).

Definition inv (s0:store) (s:state) : Prop :=
  serial s0 (order s) (sto s) /\ Forall (tinv (sto s)) (thr s) /\ NoDup (all_held (thr s)).

Lemma all_held_app a b : all_held (a ++ b) = all_held a ++ all_held b.
Proof. apply flat_map_app. Qed.

Lemma nodup_drop_mid (a b c : list nat) : NoDup (a ++ b ++ c) -> NoDup (a ++ c).
Proof. induction b as [|x b IH]; simpl; [auto|]. intros H. apply IH. now apply NoDup_remove_1 in H. Qed.

Lemma nodup_app_disjoint (a b : list nat) x : NoDup (a ++ b) -> In x a -> In x b -> False.
Proof.
  induction a as [|y a IH]; simpl; [auto|]. intros ND [->|Ha] Hb; apply NoDup_cons_iff in ND as [Hy ND]; [|auto].
  apply Hy, in_or_app. auto.
Qed.

Lemma disjoint_held pre t post u l :
  NoDup (all_held (pre ++ t :: post)) -> In u (pre ++ post) -> In l (held t) -> In l (held u) -> False.
Proof.
  rewrite all_held_app. simpl. intros ND Hu Ht Hl. apply in_app_or in Hu as [Hu|Hu].
  - apply (nodup_app_disjoint _ _ l ND); [apply in_flat_map; eauto|apply in_or_app; auto].
  - apply (nodup_drop_mid [] _ _) in ND.
    apply (nodup_app_disjoint (held t) (all_held post) l ND); [assumption|apply in_flat_map; eauto].
Qed.

Lemma blookup_none b x : (forall v, ~ In (x,v) b) -> blookup b x = None.
Proof.
  induction b as [|[y w] b IH]; simpl; [auto|]. intros H. destruct (Nat.eqb_spec y x) as [->|N].
  - exfalso. apply (H w). now left.
  - apply IH. intros v Hv. apply (H v). now right.
Qed.

(* committing t's buffer does not disturb any other active thread's view *)
Lemma other_stable s pre t post u :
  NoDup (all_held (pre ++ t :: post)) -> tinv s t -> active t -> In u (pre ++ post) -> tinv s u ->
  tinv (apply (tb t) s) u.
Proof.
  intros ND Ht At Hu Hinv Au. destruct (Hinv Au) as [He Hf]. destruct (Ht At) as [Het Hft].
  assert (Hag: forall x, In x (fp (nst u) s [] (p0 u)) -> apply (tb t) s x = s x).
  { intros x Hx. unfold apply, rd. rewrite blookup_none; [reflexivity|].
    intros v Hv. destruct (buf_in_fp _ _ _ _ _ _ Het _ _ Hv) as [[]|Hxt].
    eapply disjoint_held; [exact ND|exact Hu|apply Hft, Hxt|apply Hf, Hx]. }
  destruct (agree _ _ _ _ _ Hag) as [A B]. rewrite A, B. auto.
Qed.

(* a step replaces one thread and may change the invariant of the others *)
Lemma Forall_mid {A} {P : A -> Prop} (Q : A -> Prop) {pre t} t' {post} :
  Forall P (pre ++ t :: post) -> (forall u, In u (pre ++ post) -> P u -> Q u) -> (P t -> Q t') ->
  Forall Q (pre ++ t' :: post).
Proof.
  intros H HPQ Ht'. apply Forall_forall. intros u Hu. pose proof (proj1 (Forall_forall _ _) H) as HP.
  apply in_app_or in Hu as [Hu|[<-|Hu]].
  - apply HPQ; [|apply HP]; apply in_or_app; auto.
  - apply Ht', HP, in_elt.
  - apply HPQ; [|apply HP]; apply in_or_app; simpl; auto.
Qed.

(* an active thread executes its next instruction, holding the guards of what that accesses; the others stay as they are *)
Lemma tinv_next s pre t post b' c' h' :
  Forall (tinv s) (pre ++ t :: post) -> active t -> exec 1 s (tb t) (cur t) = Some (b', c') ->
  incl (held t) h' -> Forall (fun x => In (guard x) h') (fp 1 s (tb t) (cur t)) ->
  Forall (tinv s) (pre ++ {| p0 := p0 t; nst := S (nst t); cur := c'; tb := b'; held := h'; fin := None |} :: post).
Proof.
  intros Hth At E1 Hh Hf. apply (Forall_mid _ _ Hth); [auto|]. intros Ht _. destruct (Ht At) as [He Hfp].
  cbn [p0 nst cur tb held]. rewrite <- (Nat.add_1_r (nst t)).
  destruct (exec_add (nst t) 1 s [] (p0 t)) as [A B]. rewrite A, B, He. split; [assumption|].
  rewrite Forall_forall in Hf. intros x Hx. apply in_app_or in Hx as [Hx|Hx]; auto.
Qed.

Lemma inv_step s0 s s' : inv s0 s -> step s s' -> inv s0 s'.
Proof.
  intros (Hser & Hth & ND) Hs.
  destruct Hs as [s pre t post l k At Ec Hfree Eth | s pre t post x k At Ec Hg Eth
                 | s pre t post x v k At Ec Hg Eth | s pre t post r At Ec Eth | s pre t post r At Ec Eth];
    rewrite Eth in Hth, ND; pose proof (Forall_elt _ _ _ Hth) as Ht; unfold inv; simpl;
    rewrite all_held_app in *; simpl in *.
  - (* acquire *)
    split; [assumption|split].
    + apply tinv_next; trivial; rewrite ?Ec; simpl; auto with datatypes.
    + apply (NoDup_Add (Add_app l _ _)). auto.
  - (* read *)
    split; [assumption|split; [|assumption]].
    apply tinv_next; trivial; rewrite ?Ec; simpl; auto with datatypes.
  - (* write *)
    split; [assumption|split; [|assumption]].
    apply tinv_next; trivial; rewrite ?Ec; simpl; auto with datatypes.
  - (* commit *)
    destruct (Ht At) as [He _]. rewrite Ec in He.
    split; [|split].
    + apply ser_commit; [assumption|]. rewrite (run_exec _ _ _ _ _ _ He). reflexivity.
    + apply (Forall_mid _ _ Hth); [|intros _ C; discriminate C].
      intros u Hu. eapply other_stable; eauto. rewrite all_held_app. assumption.
    + eapply nodup_drop_mid; eassumption.
  - (* abort *)
    destruct (Ht At) as [He _]. rewrite Ec in He.
    split; [|split].
    + apply ser_abort; [assumption|]. rewrite (run_exec _ _ _ _ _ _ He). reflexivity.
    + apply (Forall_mid _ _ Hth); [auto|intros _ C; discriminate C].
    + eapply nodup_drop_mid; eassumption.
Qed.

Inductive reach : state -> state -> Prop :=
| r_refl s : reach s s
| r_step s s' s'' : reach s s' -> step s' s'' -> reach s s''.

Definition init (s0:store) (ps:list prog) : state :=
  {| sto := s0; order := [];
     thr := map (fun p => {| p0 := p; nst := 0; cur := p; tb := []; held := []; fin := None |}) ps |}.

Lemma inv_init s0 ps : inv s0 (init s0 ps).
Proof.
  unfold inv, init; simpl. split; [constructor|split].
  - apply Forall_map, Forall_forall. intros p _ _. simpl. split; [reflexivity|intros ? []].
  - induction ps; simpl; [constructor|assumption].
Qed.

Lemma inv_reach s0 s1 s : inv s0 s1 -> reach s1 s -> inv s0 s.
Proof. intros H Hr. induction Hr; eauto using inv_step. Qed.

(* whatever the interleaving, the store is the one obtained by running the finished transactions one at a time, in
   the order of their commit/abort steps, and each returned the value it returns in that serial run *)
Theorem two_phase_serializable s0 ps s :
  reach (init s0 ps) s -> serial s0 (order s) (sto s).
Proof. intros Hr. apply (inv_reach s0 _ s (inv_init s0 ps) Hr). Qed.
End TwoPL.
Print Assumptions two_phase_serializable.
