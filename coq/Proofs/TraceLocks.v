(* Link between the executable trace predicate asc_b and the hypothesis of ordered_no_deadlock. *)
From Coq Require Import List NArith Bool Sorted.
From V Require Import Model.TraceCheck.
Import ListNotations.
Open Scope N_scope.

(* a transaction that releases nothing before its last acquisition *)
Fixpoint no_early_release (seen_rel : bool) (evs : list tev) : bool :=
  match evs with
  | [] => true
  | TAcq _ :: r => negb seen_rel && no_early_release seen_rel r
  | TRel _ :: r => no_early_release true r
  | _ :: r => no_early_release seen_rel r
  end.

Lemma no_acq_after_release evs : no_early_release true evs = true -> acquisitions evs = [].
Proof.
  induction evs as [|e evs IH]; simpl; intros H; [reflexivity|].
  destruct e; simpl in *; try exact (IH H). discriminate.
Qed.

(* every lock in held is a lower bound of what is acquired later *)
Lemma asc_sorted_aux seen evs : forall held, no_early_release seen evs = true -> asc_b held evs = true ->
  StronglySorted N.lt (acquisitions evs) /\ forall h, In h held -> Forall (N.lt h) (acquisitions evs).
Proof.
  induction evs as [|e evs IH]; intros held Hn Ha; simpl; [split; constructor|].
  destruct e; simpl in *; try exact (IH _ Hn Ha).
  - apply andb_true_iff in Hn as [_ Hn]. apply andb_true_iff in Ha as [Hh Ha].
    destruct (IH (i :: held) Hn Ha) as [S F]. split.
    + constructor; [exact S|]. apply F. now left.
    + intros h Hin. constructor; [|apply F; now right].
      rewrite forallb_forall in Hh. apply N.ltb_lt, Hh, Hin.
  - rewrite (no_acq_after_release evs Hn). split; constructor.
Qed.

(* the acquisition sequence of a transaction that passes asc_b (starting with nothing held) and does not
   release early is strictly ascending: the shape Locks.init_ok asks of every thread's list (there over nat, here over N) *)
Theorem asc_b_sorted evs : no_early_release false evs = true -> asc_b [] evs = true ->
  StronglySorted N.lt (acquisitions evs).
Proof. intros Hn Ha. exact (proj1 (asc_sorted_aux false evs [] Hn Ha)). Qed.
