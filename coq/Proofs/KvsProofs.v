(* KM laws: a multi-put installs all of its pairs, later pairs of the same call win, other keys are
   untouched; a get returns the value of the latest put of that key. *)
From stdpp Require Import gmap.
From V Require Import Model.Lib Model.KvsModel.
Open Scope N_scope.

Lemma kput_cons s k v ps : kput s ((k, v) :: ps) = kput (<[k:=v]> s) ps.
Proof. reflexivity. Qed.

Lemma kput_app s a b : kput s (a ++ b) = kput (kput s a) b.
Proof. apply fold_left_app. Qed.

Lemma kput_other s pairs k : k ∉ pairs.*1 -> kget (kput s pairs) k = kget s k.
Proof.
  revert s. induction pairs as [|[k' v] ps IH]; intros s Hn; [reflexivity|].
  apply not_elem_of_cons in Hn as [Hne Hn]. rewrite kput_cons, IH by exact Hn.
  unfold kget, kstate. rewrite lookup_insert_ne by exact (not_eq_sym Hne). reflexivity.
Qed.

(* the value read after a multi-put is that of the last pair for the key *)
Lemma kput_last s ps1 k v ps2 : k ∉ ps2.*1 -> kget (kput s (ps1 ++ (k, v) :: ps2)) k = v.
Proof.
  intros Hn. rewrite kput_app, kput_cons, kput_other by exact Hn.
  unfold kget, kstate. rewrite lookup_insert. reflexivity.
Qed.

(* history: the state after a sequence of multi-puts *)
Definition kruns (s : kstate) (puts : list (list (N * bytes))) : kstate := fold_left kput puts s.

Lemma kruns_cons s ps puts : kruns s (ps :: puts) = kruns (kput s ps) puts.
Proof. reflexivity. Qed.

Lemma kruns_app s a b : kruns s (a ++ b) = kruns (kruns s a) b.
Proof. apply fold_left_app. Qed.

Lemma kruns_other s puts k : Forall (fun ps => k ∉ ps.*1) puts -> kget (kruns s puts) k = kget s k.
Proof.
  intros Ha. revert s. induction Ha as [|ps puts H1 _ IH]; intros s; [reflexivity|].
  rewrite kruns_cons, IH. apply kput_other, H1.
Qed.

(* a get returns the latest put of that key: if the last call touching k is [ps1 ++ (k,v) :: ps2]
   (with k not in ps2) and no later call mentions k, the value is v *)
Theorem kvs_get_latest s before ps1 k v ps2 after :
  k ∉ ps2.*1 -> Forall (fun ps => k ∉ ps.*1) after ->
  kget (kruns s (before ++ (ps1 ++ (k, v) :: ps2) :: after)) k = v.
Proof.
  intros Hn Ha. rewrite kruns_app, kruns_cons, kruns_other by exact Ha. apply kput_last, Hn.
Qed.

(* all-or-nothing is the shape of the model: a multi-put is one state transition; together with the
   journal theorems (a crash recovers a prefix of the transactions) every crash state is kruns of a
   prefix of the calls. *)
Theorem kvs_prefix_states s puts k : kruns s (firstn k puts) = fold_left kput (firstn k puts) s.
Proof. reflexivity. Qed.
