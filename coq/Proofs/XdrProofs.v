(* Round trip of the generic XDR codec: decoding what was encoded gives back the value and the rest
   of the input, for every descriptor environment, type, value and fuel.  At the end, the form in which the
   conformance check of Model/XdrConform.v is evaluated. *)
From Coq Require Import List NArith Lia String.
From V Require Import Model.Lib Model.Xdr Model.XdrConform Proofs.LibFacts.
Import ListNotations.
Open Scope N_scope.

Lemma unbe_app a b acc : unbe (a ++ b) acc = unbe b (unbe a acc).
Proof. revert acc. induction a as [|x a IH]; intros acc; simpl; [reflexivity|apply IH]. Qed.

Lemma lenN_be k x : lenN (be k x) = N.of_nat k.
Proof.
  unfold lenN. f_equal. revert x. induction k as [|k IH]; intros x; simpl; [reflexivity|].
  rewrite app_length, IH. simpl. lia.
Qed.

Lemma unbe_be k : forall x, unbe (be k x) 0 = x mod 256 ^ N.of_nat k.
Proof.
  induction k as [|k IH]; intros x.
  - simpl. rewrite N.mod_1_r. reflexivity.
  - cbn [be]. rewrite unbe_app. cbn [unbe]. rewrite IH, byte_to_of, Nat2N.inj_succ, N.pow_succ_r', N.mod_mul_r.
    + lia.
    + discriminate.
    + apply N.pow_nonzero. discriminate.
Qed.

Lemma take_bytes_app n b rest : lenN b = n -> take_bytes n (b ++ rest) = Some (b, rest).
Proof.
  intros <-. unfold take_bytes. rewrite lenN_app. destruct (N.leb_spec (lenN b) (lenN b + lenN rest)); [|lia].
  unfold takeN, dropN, lenN. rewrite Nat2N.id, stdpp.list.take_app, stdpp.list.drop_app. reflexivity.
Qed.

Lemma word_be k x rest : x < 256 ^ N.of_nat k -> word k (be k x ++ rest) = Some (x, rest).
Proof.
  intros H. unfold word. rewrite take_bytes_app by apply lenN_be.
  rewrite unbe_be, N.mod_small by exact H. reflexivity.
Qed.

(* keeps simpl in rt_all from unfolding be 4 n *)
Local Opaque be unbe.

Lemma words_roundtrip l : forall bs rest, enc_words l = Some bs ->
  dec_words (List.length l) (bs ++ rest) = Some (l, rest) /\ lenN bs = 4 * lenN l.
Proof.
  induction l as [|v l IH]; intros bs rest H; cbn [enc_words dec_words List.length] in *.
  - injection H as <-. split; reflexivity.
  - destruct v as [n| | | |]; try discriminate.
    destruct (N.ltb_spec n W32) as [Hn|]; [|discriminate].
    destruct (enc_words l) as [b|] eqn:El; [|discriminate]. injection H as <-.
    destruct (IH b rest eq_refl) as [D L].
    rewrite <- app_assoc, word_be, D by exact Hn. split; [reflexivity|].
    rewrite lenN_app, L, lenN_be. unfold lenN. cbn [List.length]. lia.
Qed.

Section RT.
Variable E : env.

Definition P_ty (f : nat) : Prop := forall t v bs rest,
  enc E f t v = Some bs -> dec E f t (bs ++ rest) = Some (v, rest).
Definition P_items (f : nat) : Prop := forall items fs seen bs rest,
  enc_items E f items fs seen = Some bs ->
  dec_items E f items (bs ++ rest) seen = Some (rev fs ++ seen, rest).

Lemma rt_all f : P_ty f /\ P_items f.
Proof.
  induction f as [|f [IHt IHi]].
  { split; [intros t v bs rest H|intros items fs seen bs rest H]; discriminate H. }
  (* [simpl] unfolds one step of the codec and folds the recursive calls back into enc, enc_items, dec and
     dec_items; [cbn [enc]] would leave the calls to the partner fixpoint as anonymous fix terms *)
  split.
  - intros t v bs rest H. destruct t as [| | |k|mx|t'| |nm|items]; simpl in H; simpl.
    + destruct v as [n| | | |]; try discriminate. destruct (N.ltb_spec n W32) as [Hn|]; [|discriminate].
      injection H as <-. rewrite word_be by exact Hn. reflexivity.
    + destruct v as [n| | | |]; try discriminate. destruct (N.ltb_spec n W64) as [Hn|]; [|discriminate].
      injection H as <-. rewrite word_be by exact Hn. reflexivity.
    + destruct v as [n| | | |]; try discriminate. destruct (N.ltb_spec n 2) as [Hn|]; [|discriminate].
      injection H as <-. rewrite word_be by (change (256 ^ N.of_nat 4) with W32; unfold W32; lia).
      assert (n = 0 \/ n = 1) as [-> | ->] by lia; reflexivity.
    + destruct v as [|b| | |]; try discriminate. destruct (N.eqb_spec (lenN b) k) as [Hk|]; [|discriminate].
      injection H as <-. rewrite <- app_assoc, take_bytes_app by exact Hk.
      rewrite take_bytes_app by apply zeros_len. reflexivity.
    + destruct v as [|b| | |]; try discriminate.
      destruct (N.ltb_spec (lenN b) W32) as [Hl|]; [|discriminate].
      destruct (match mx with Some m => lenN b <=? m | None => true end) eqn:Hm; [|discriminate].
      injection H as <-. rewrite <- !app_assoc, word_be, Hm by exact Hl.
      rewrite take_bytes_app by reflexivity. rewrite take_bytes_app by apply zeros_len. reflexivity.
    + destruct v as [| |[x|]| |]; try discriminate.
      * destruct (enc E f t' x) as [b|] eqn:Ex; [|discriminate]. injection H as <-.
        rewrite <- app_assoc, word_be by reflexivity.
        cbn [N.eqb]. rewrite (IHt _ _ _ rest Ex). reflexivity.
      * injection H as <-. rewrite word_be by reflexivity. reflexivity.
    + destruct v as [| | |l|]; try discriminate. destruct (N.ltb_spec (lenN l) W32) as [Hl|]; [|discriminate].
      destruct (enc_words l) as [b|] eqn:El; [|discriminate]. injection H as <-.
      rewrite <- app_assoc, word_be by exact Hl.
      destruct (words_roundtrip l b rest El) as [D L].
      rewrite lenN_app. destruct (N.leb_spec (lenN l * 4) (lenN b + lenN rest)); [|lia].
      unfold lenN at 1. rewrite Nat2N.id, D. reflexivity.
    + destruct (lookup_ty E nm) as [t'|]; [|discriminate]. apply IHt, H.
    + destruct v as [| | | |fs]; try discriminate.
      rewrite (IHi _ _ _ _ rest H), app_nil_r, rev_involutive. reflexivity.
  - intros items fs seen bs rest H.
    destruct items as [|[nm t|on arms dflt] items']; simpl in H; simpl.
    + destruct fs; [|discriminate]. injection H as <-. reflexivity.
    + destruct fs as [|[n v] fs']; [discriminate|].
      destruct (String.eqb_spec n nm) as [->|]; [|discriminate].
      destruct (enc E f t v) as [a|] eqn:Ea; [|discriminate].
      destruct (enc_items E f items' fs' ((nm, v) :: seen)) as [b|] eqn:Eb; [|discriminate].
      injection H as <-. rewrite <- app_assoc, (IHt _ _ _ (b ++ rest) Ea), (IHi _ _ _ _ rest Eb).
      cbn [rev]. rewrite <- app_assoc. reflexivity.
    + destruct (field_val seen on) as [d|]; [|discriminate].
      destruct (match find_arm arms d with Some a => Some a | None => dflt end) as [body|]; [|discriminate].
      apply IHi, H.
Qed.

Theorem decode_encode f t v bs rest :
  enc E f t v = Some bs -> dec E f t (bs ++ rest) = Some (v, rest).
Proof. apply (proj1 (rt_all f)). Qed.

(* corollary: an encoding never decodes to a different value *)
Corollary decode_encode_exact f t v bs : enc E f t v = Some bs -> dec E f t bs = Some (v, []).
Proof. intros H. rewrite <- (app_nil_r bs). apply decode_encode. exact H. Qed.
End RT.

(* truncation: a strict prefix of the needed bytes is rejected, never mis-parsed *)
Lemma take_bytes_short n bs : lenN bs < n -> take_bytes n bs = None.
Proof. intros H. unfold take_bytes. destruct (N.leb_spec n (lenN bs)); [lia|reflexivity]. Qed.

(* the decoder only ever consumes a prefix: what is left is a suffix of the input *)
Definition suffix_of (r bs : bytes) : Prop := exists p, bs = p ++ r.

Lemma take_bytes_suffix n bs b r : take_bytes n bs = Some (b, r) -> bs = b ++ r.
Proof.
  unfold take_bytes. destruct (n <=? lenN bs); [|discriminate]. intros [= <- <-].
  unfold takeN, dropN. symmetry. apply firstn_skipn.
Qed.

(* Looking a name up without regard to case is looking its lower-case form up among the lower-cased names.
   [nonconforming] lower-cases the names of the repository's environment again for every RFC type; handing
   [lower_env gen] to [nonconforming_in] as an argument lets lazy evaluation (the checker's, which has no virtual
   machine) do it once. *)
Definition lower_env (e : env) : env := map (fun p => (lower (fst p), snd p)) e.

Lemma lookup_ci_lower e nm : lookup_ci e nm = lookup_ty (lower_env e) (lower nm).
Proof. induction e as [|[n t] e IH]; [reflexivity|]. simpl. unfold name_eqb. rewrite IH. reflexivity. Qed.

Definition nonconforming_in (g rfc : env) : list string :=
  flat_map (fun p => match lookup_ty g (lower (fst p)) with
                     | Some t => if ty_eqb 64 t (snd p) then [] else [fst p]
                     | None => [fst p] end) rfc.

Lemma nonconforming_lower gen rfc : nonconforming gen rfc = nonconforming_in (lower_env gen) rfc.
Proof. apply flat_map_ext. intros p. rewrite lookup_ci_lower. reflexivity. Qed.
