(* The numbers the hand-written models use are the numbers of the code: every statement here is closed by
   computation against Gen/GenConsts.v, which the translator regenerates from /repo (and from the go-journal /
   goose packages /repo is built on) on every run.  A changed constant breaks the corresponding line. *)
From stdpp Require Import gmap.
From V Require Import Gen.GenConsts Model.Afs Model.Agree Model.WalDisk Model.SuperModel.
Open Scope N_scope.

(* blocks, inodes, directories (abs_disk / wf_disk / Layout) *)
Lemma block_size : go_disk_BlockSize = Lib.BS. Proof. reflexivity. Qed.
Lemma ndirect : go_inode_NDIRECT = Abs.NDIRECT. Proof. reflexivity. Qed.
Lemma pointers_per_block : go_inode_NBLKBLK = Abs.NPTR /\ go_inode_NBLKBLK * 8 = go_disk_BlockSize. Proof. split; reflexivity. Qed.
Lemma inode_slots : go_inode_NBLKINO = go_inode_NDIRECT + 2 /\ go_inode_INDIRECT = go_inode_NDIRECT /\
                    go_inode_DINDIRECT = go_inode_NDIRECT + 1 /\ go_inode_NINDLEVEL = 2. Proof. repeat split; reflexivity. Qed.
Lemma dirent_size : go_dir_DIRENTSZ = Abs.DIRENTSZ /\ go_dir_MAXNAMELEN + 16 = go_dir_DIRENTSZ. Proof. split; reflexivity. Qed.
(* the reply-size estimate READDIRPLUS charges per entry (dir.Apply), as used by the page model *)
Lemma readdirplus_baggage : go_dir_entryplus3Baggage = Agree.ENTRYPLUS_BAGGAGE. Proof. reflexivity. Qed.
Lemma inode_size : go_common_INODESZ = SuperModel.INODESZ /\ go_common_INODEBLK = SuperModel.INODEBLK /\
                   go_common_INODESZ * go_common_INODEBLK = go_disk_BlockSize. Proof. repeat split; reflexivity. Qed.
Lemma bitmap_block : go_common_NBITBLOCK = SuperModel.NBITBLOCK /\ go_common_NINODEBITMAP = SuperModel.NINODEBITMAP. Proof. split; reflexivity. Qed.
Lemma root_and_null : go_common_ROOTINUM = Afs.ROOT /\ go_common_NULLINUM = 0 /\ go_common_NULLBNUM = 0. Proof. repeat split; reflexivity. Qed.
(* the largest file the index tree can address, as FSINFO must announce it *)
Lemma max_file_blocks : go_inode_NDIRECT + go_inode_NBLKBLK * go_inode_NBLKBLK = 262152. Proof. reflexivity. Qed.

(* the write-ahead log (WalDisk.recover_log, the layout of the file-system region) *)
Lemma log_region : go_common_LOGSIZE = SuperModel.LOGSIZE /\ go_wal_LOGDISKBLOCKS = go_common_LOGSIZE /\
                   go_wal_LOGSZ = WalDisk.LOGSZ /\ go_wal_LOGSTART = WalDisk.LOGSTART /\ go_wal_HDRADDRS = go_wal_LOGSZ /\
                   go_wal_LOGHDR = 0 /\ go_wal_LOGHDR2 = 1 /\ go_jrnl_LogBlocks = go_wal_LOGSZ. Proof. repeat split; reflexivity. Qed.

(* what the agreement relations read off replies *)
Lemma file_types : kind_code KFile = go_nfstypes_NF3REG /\ kind_code KDir = go_nfstypes_NF3DIR /\ kind_code KLnk = go_nfstypes_NF3LNK /\
                   go_inode_NF3FREE = 0. Proof. repeat split; reflexivity. Qed.
Lemma status_classes : class_of go_nfstypes_NFS3_OK = OK /\ class_of go_nfstypes_NFS3ERR_STALE = STALE /\
                       class_of go_nfstypes_NFS3ERR_NOTSUPP = NOTSUPP /\
                       Forall (fun c => class_of c = ERR)
                         [go_nfstypes_NFS3ERR_NOSPC; go_nfstypes_NFS3ERR_DQUOT; go_nfstypes_NFS3ERR_SERVERFAULT; go_nfstypes_NFS3ERR_NOENT;
                          go_nfstypes_NFS3ERR_EXIST; go_nfstypes_NFS3ERR_NOTDIR; go_nfstypes_NFS3ERR_ISDIR; go_nfstypes_NFS3ERR_INVAL;
                          go_nfstypes_NFS3ERR_NAMETOOLONG; go_nfstypes_NFS3ERR_NOTEMPTY; go_nfstypes_NFS3ERR_BADHANDLE; go_nfstypes_NFS3ERR_FBIG].
Proof. repeat split; try reflexivity. repeat constructor. Qed.
(* the replies treated as resource failures by hint_of are exactly NOSPC, DQUOT and SERVERFAULT *)
Lemma resource_failures : (go_nfstypes_NFS3ERR_NOSPC, go_nfstypes_NFS3ERR_DQUOT, go_nfstypes_NFS3ERR_SERVERFAULT) = (28, 69, 10006). Proof. reflexivity. Qed.
Lemma stability_levels : stable_code Unstable = go_nfstypes_UNSTABLE /\ stable_code DataSync = go_nfstypes_DATA_SYNC /\
                         stable_code FileSync = go_nfstypes_FILE_SYNC. Proof. repeat split; reflexivity. Qed.

(* bundles referenced from Props/ *)
Definition disk_constants_conform : Prop :=
  go_disk_BlockSize = Lib.BS /\ go_inode_NDIRECT = Abs.NDIRECT /\
  (go_inode_NBLKBLK = Abs.NPTR /\ go_inode_NBLKBLK * 8 = go_disk_BlockSize) /\
  (go_inode_NBLKINO = go_inode_NDIRECT + 2 /\ go_inode_INDIRECT = go_inode_NDIRECT /\ go_inode_DINDIRECT = go_inode_NDIRECT + 1 /\ go_inode_NINDLEVEL = 2) /\
  (go_dir_DIRENTSZ = Abs.DIRENTSZ /\ go_dir_MAXNAMELEN + 16 = go_dir_DIRENTSZ) /\
  (go_common_INODESZ = SuperModel.INODESZ /\ go_common_INODEBLK = SuperModel.INODEBLK /\ go_common_INODESZ * go_common_INODEBLK = go_disk_BlockSize) /\
  (go_common_NBITBLOCK = SuperModel.NBITBLOCK /\ go_common_NINODEBITMAP = SuperModel.NINODEBITMAP) /\
  (go_common_ROOTINUM = Afs.ROOT /\ go_common_NULLINUM = 0 /\ go_common_NULLBNUM = 0).
Lemma disk_constants_ok : disk_constants_conform.
Proof. exact (conj block_size (conj ndirect (conj pointers_per_block (conj inode_slots (conj dirent_size (conj inode_size (conj bitmap_block root_and_null))))))). Qed.

Definition log_constants_conform : Prop :=
  go_common_LOGSIZE = SuperModel.LOGSIZE /\ go_wal_LOGDISKBLOCKS = go_common_LOGSIZE /\
  go_wal_LOGSZ = WalDisk.LOGSZ /\ go_wal_LOGSTART = WalDisk.LOGSTART /\ go_wal_HDRADDRS = go_wal_LOGSZ /\
  go_wal_LOGHDR = 0 /\ go_wal_LOGHDR2 = 1 /\ go_jrnl_LogBlocks = go_wal_LOGSZ.
Lemma log_constants_ok : log_constants_conform. Proof. exact log_region. Qed.

Definition reply_constants_conform : Prop :=
  (kind_code KFile = go_nfstypes_NF3REG /\ kind_code KDir = go_nfstypes_NF3DIR /\ kind_code KLnk = go_nfstypes_NF3LNK /\ go_inode_NF3FREE = 0) /\
  (class_of go_nfstypes_NFS3_OK = OK /\ class_of go_nfstypes_NFS3ERR_STALE = STALE /\ class_of go_nfstypes_NFS3ERR_NOTSUPP = NOTSUPP) /\
  (go_nfstypes_NFS3ERR_NOSPC, go_nfstypes_NFS3ERR_DQUOT, go_nfstypes_NFS3ERR_SERVERFAULT) = (28, 69, 10006) /\
  (stable_code Unstable = go_nfstypes_UNSTABLE /\ stable_code DataSync = go_nfstypes_DATA_SYNC /\ stable_code FileSync = go_nfstypes_FILE_SYNC).
Lemma reply_constants_ok : reply_constants_conform.
Proof.
  split; [exact file_types|]. split; [destruct status_classes as (a & b & c & _); auto|].
  split; [exact resource_failures|exact stability_levels].
Qed.
