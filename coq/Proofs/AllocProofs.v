(* Proofs about AT (Model/AllocModel.v): in every interleaving of transactions that allocate, free, commit and abort,
   the in-memory allocator marks exactly the numbers marked on disk plus the numbers running transactions hold;
   so whenever no transaction runs the two agree (what the harness compares after every RPC: R-alloc), a commit
   makes exactly its allocations and frees durable — a number allocated and given back in one transaction ends up
   free in both — and an abort leaves the disk alone and returns the allocator to where it was. *)
From stdpp Require Import gmap.
From V Require Import Model.AllocModel.

Lemma set_bits_spec l : forall d n, n ∈ set_bits d l <-> n ∈ d \/ n ∈ l.
Proof.
  induction l as [|x l IH]; intros d n; simpl.
  - rewrite elem_of_nil. tauto.
  - unfold set_bits in *. rewrite IH, elem_of_cons, elem_of_union, elem_of_singleton. tauto.
Qed.
Lemma clear_bits_spec l : forall d n, n ∈ clear_bits d l <-> n ∈ d /\ n ∉ l.
Proof.
  induction l as [|x l IH]; intros d n; simpl.
  - rewrite elem_of_nil. tauto.
  - unfold clear_bits in *. rewrite IH, not_elem_of_cons, elem_of_difference, not_elem_of_singleton. tauto.
Qed.
Lemma release_spec l : forall d n, n ∈ release d l <-> n ∈ d /\ n ∉ l.
Proof. exact (clear_bits_spec l). Qed.
Lemma pre_commit_spec d tx n : n ∈ pre_commit d tx <-> (n ∈ d \/ n ∈ t_al tx) /\ n ∉ t_fr tx.
Proof. unfold pre_commit. rewrite clear_bits_spec, set_bits_spec. tauto. Qed.

Lemma astep_alloc s t n s' : astep s (AAlloc t n) = Some s' ->
  exists tx, a_txns s !! t = Some tx /\ n ∉ a_mem s /\
    s' = {| a_mem := a_mem s ∪ {[n]}; a_disk := a_disk s;
            a_txns := <[t := {| t_al := t_al tx ++ [n]; t_fr := t_fr tx |}]> (a_txns s) |}.
Proof.
  simpl. destruct (a_txns s !! t) as [tx|]; [|discriminate].
  destruct (bool_decide (n ∉ a_mem s)) eqn:G; [|discriminate]. apply bool_decide_eq_true in G.
  destruct (negb _); [|discriminate]. intros [= <-]. eauto.
Qed.
Lemma astep_free s t n s' : astep s (AFree t n) = Some s' ->
  exists tx, a_txns s !! t = Some tx /\ (n ∈ a_disk s \/ n ∈ t_al tx) /\ nobody_freed (a_txns s) n /\
    s' = {| a_mem := a_mem s; a_disk := a_disk s;
            a_txns := <[t := {| t_al := t_al tx; t_fr := t_fr tx ++ [n] |}]> (a_txns s) |}.
Proof.
  simpl. destruct (a_txns s !! t) as [tx|]; [|discriminate].
  destruct (bool_decide (_ \/ _)) eqn:G1; [|discriminate]. apply bool_decide_eq_true in G1.
  destruct (bool_decide (nobody_freed _ _)) eqn:G2; [|discriminate]. apply bool_decide_eq_true in G2.
  intros [= <-]. eauto 6.
Qed.

Record ainv (s : astate) : Prop := {
  i_mem : forall n, n ∈ a_mem s <-> n ∈ a_disk s \/ exists t tx, a_txns s !! t = Some tx /\ n ∈ t_al tx;
  i_al_disk : forall t tx n, a_txns s !! t = Some tx -> n ∈ t_al tx -> n ∉ a_disk s;
  i_al_al : forall t1 t2 tx1 tx2 n, a_txns s !! t1 = Some tx1 -> a_txns s !! t2 = Some tx2 ->
            n ∈ t_al tx1 -> n ∈ t_al tx2 -> t1 = t2;
  i_fr_used : forall t tx n, a_txns s !! t = Some tx -> n ∈ t_fr tx -> n ∈ a_disk s \/ n ∈ t_al tx;
  i_fr_fr : forall t1 t2 tx1 tx2 n, a_txns s !! t1 = Some tx1 -> a_txns s !! t2 = Some tx2 ->
            n ∈ t_fr tx1 -> n ∈ t_fr tx2 -> t1 = t2 }.

Lemma ainv_init d : ainv (a_init d).
Proof.
  split; simpl; try (intros *; rewrite lookup_empty; discriminate).
  intros n. split; [auto|]. intros [H|(t & tx & H & _)]; [exact H|]. rewrite lookup_empty in H. discriminate.
Qed.

(* The invariant depends on the running transactions only through two relations, "t holds n" (has t_al) and
   "t has recorded n as freed" (has t_fr); a step adds one pair to one of them or removes all pairs of one t.
   `arel` is the invariant read on such relations: that each kind of step keeps it is then first-order logic. *)
Definition has (f : atxn -> list N) (T : gmap nat atxn) (t : nat) (n : N) : Prop :=
  exists tx, T !! t = Some tx /\ n ∈ f tx.

Lemma has_alt f T t n : has f T t n <-> n ∈ from_option f [] (T !! t).
Proof.
  unfold has. destruct (T !! t) as [tx|]; simpl.
  - split; [intros (? & [= <-] & X); exact X|eauto].
  - rewrite elem_of_nil. split; [intros (? & [=] & _)|tauto].
Qed.
Lemma has_delete f T t t' n : has f (delete t T) t' n <-> t' <> t /\ has f T t' n.
Proof.
  rewrite !has_alt. destruct (decide (t' = t)) as [->|Hne].
  - rewrite lookup_delete, elem_of_nil. tauto.
  - rewrite lookup_delete_ne by auto. tauto.
Qed.
(* t's record (the empty one if t is not running) is replaced by one that has the same numbers, or one more *)
Lemma has_insert_same f T t tx : f tx = from_option f [] (T !! t) ->
  forall t' n, has f (<[t:=tx]> T) t' n <-> has f T t' n.
Proof.
  intros E t' n. rewrite !has_alt. destruct (decide (t' = t)) as [->|Hne].
  - rewrite lookup_insert, <- E. reflexivity.
  - rewrite lookup_insert_ne by auto. reflexivity.
Qed.
Lemma has_insert_snoc f T t tx x : f tx = from_option f [] (T !! t) ++ [x] ->
  forall t' n, has f (<[t:=tx]> T) t' n <-> has f T t' n \/ t' = t /\ n = x.
Proof.
  intros E t' n. rewrite !has_alt. destruct (decide (t' = t)) as [->|Hne].
  - rewrite lookup_insert. simpl. rewrite E, elem_of_app, elem_of_list_singleton. tauto.
  - rewrite lookup_insert_ne by auto. tauto.
Qed.

Record arel (M D : N -> Prop) (A F : nat -> N -> Prop) : Prop := {
  r_mem : forall n, M n <-> D n \/ exists t, A t n;
  r_al_disk : forall t n, A t n -> ~ D n;
  r_al_al : forall t1 t2 n, A t1 n -> A t2 n -> t1 = t2;
  r_fr_used : forall t n, F t n -> D n \/ A t n;
  r_fr_fr : forall t1 t2 n, F t1 n -> F t2 n -> t1 = t2 }.

Lemma ainv_arel s :
  ainv s <-> arel (.∈ a_mem s) (.∈ a_disk s) (has t_al (a_txns s)) (has t_fr (a_txns s)).
Proof.
  split; intros [Im Id Ia Fu Ff]; split; try exact Im.
  - intros t n (tx & H & Hn). eauto.
  - intros t1 t2 n (tx1 & H1 & N1) (tx2 & H2 & N2). eauto.
  - intros t n (tx & H & Hn). destruct (Fu _ _ _ H Hn); [left|right; exists tx]; auto.
  - intros t1 t2 n (tx1 & H1 & N1) (tx2 & H2 & N2). eauto.
  - intros t tx n H Hn. eapply Id. exists tx. eauto.
  - intros t1 t2 tx1 tx2 n H1 H2 N1 N2. apply (Ia t1 t2 n); [exists tx1|exists tx2]; auto.
  - intros t tx n H Hn. destruct (Fu t n) as [X|(tx' & H' & X)]; [exists tx| |right; congruence]; auto.
  - intros t1 t2 tx1 tx2 n H1 H2 N1 N2. apply (Ff t1 t2 n); [exists tx1|exists tx2]; auto.
Qed.

Section arel_steps.
Context {M D : N -> Prop} {A F : nat -> N -> Prop} (I : arel M D A F).

Lemma arel_iff M' D' A' F' : (forall n, M' n <-> M n) -> (forall n, D' n <-> D n) ->
  (forall t n, A' t n <-> A t n) -> (forall t n, F' t n <-> F t n) -> arel M' D' A' F'.
Proof.
  destruct I as [Im Id Ia Fu Ff]. intros HM HD HA HF.
  split; intros *; rewrite ?HM, ?HD, ?HA, ?HF; [setoid_rewrite HA; apply Im|apply Id|apply Ia|apply Fu|apply Ff].
Qed.

(* n was free in memory: not on disk and in nobody's hands *)
Lemma arel_alloc t n : ~ M n -> arel (fun m => M m \/ m = n) D (fun t' m => A t' m \/ t' = t /\ m = n) F.
Proof.
  destruct I as [Im Id Ia Fu Ff]. intros G.
  assert (Ga : forall t', ~ A t' n) by (intros t' X; apply G, Im; eauto).
  split.
  - intros m. rewrite Im. split.
    + intros [[X|[t' X]]| ->]; eauto.
    + intros [X|[t' [X|[_ ->]]]]; eauto.
  - intros t' m [X|[_ ->]]; [eauto|]. intros X. apply G, Im. auto.
  - intros t1 t2 m [X1|[-> ->]] [X2|[-> E]]; subst; eauto; edestruct Ga; eauto.
  - intros t' m X. destruct (Fu _ _ X); auto.
  - exact Ff.
Qed.

Lemma arel_free t n : D n \/ A t n -> (forall t', ~ F t' n) -> arel M D A (fun t' m => F t' m \/ t' = t /\ m = n).
Proof.
  destruct I as [Im Id Ia Fu Ff]. intros G1 G2. split; [exact Im|exact Id|exact Ia| |].
  - intros t' m [X|[-> ->]]; eauto.
  - intros t1 t2 m [X1|[-> ->]] [X2|[-> E]]; subst; eauto; edestruct G2; eauto.
Qed.

Lemma arel_commit t : arel (fun m => M m /\ ~ F t m) (fun m => (D m \/ A t m) /\ ~ F t m)
                           (fun t' m => t' <> t /\ A t' m) (fun t' m => t' <> t /\ F t' m).
Proof.
  destruct I as [Im Id Ia Fu Ff].
  (* what t frees was on disk or its own: nothing another transaction holds *)
  assert (K : forall t' m, t' <> t -> A t' m -> ~ F t m).
  { intros t' m Ne X Y. destruct (Fu _ _ Y) as [Z|Z]; [eapply Id; eauto|apply Ne; eauto]. }
  split.
  - intros m. rewrite Im. split.
    + intros [[X|[t' X]] NF]; [auto|]. destruct (decide (t' = t)) as [->|]; eauto.
    + intros [[[X|X] NF]|[t' [Ne X]]]; eauto 6.
  - intros t' m [Ne X] [[Y|Y] _]; [eapply Id; eauto|apply Ne; eauto].
  - intros t1 t2 m [_ X1] [_ X2]; eauto.
  - intros t' m [Ne X]. destruct (Fu _ _ X) as [Y|Y]; [left|auto]. split; [auto|]. intros Z. apply Ne; eauto.
  - intros t1 t2 m [_ X1] [_ X2]; eauto.
Qed.

Lemma arel_abort t : arel (fun m => M m /\ ~ A t m) D (fun t' m => t' <> t /\ A t' m) (fun t' m => t' <> t /\ F t' m).
Proof.
  destruct I as [Im Id Ia Fu Ff]. split.
  - intros m. rewrite Im. split.
    + intros [[X|[t' X]] NA]; [auto|]. right. exists t'. split; [intros ->|]; auto.
    + intros [X|[t' [Ne X]]]; (split; [eauto|]); intros Y; [eapply Id; eauto|apply Ne; eauto].
  - intros t' m [_ X]; eauto.
  - intros t1 t2 m [_ X1] [_ X2]; eauto.
  - intros t' m [Ne X]. destruct (Fu _ _ X); auto.
  - intros t1 t2 m [_ X1] [_ X2]; eauto.
Qed.
End arel_steps.

Theorem ainv_step s o s' : ainv s -> astep s o = Some s' -> ainv s'.
Proof.
  intros I%ainv_arel E. apply ainv_arel. destruct o as [t|t n|t n|t|t].
  - simpl in E. destruct (a_txns s !! t) eqn:Et; [discriminate|]. injection E as <-.
    eapply arel_iff; [exact I|reflexivity..|apply has_insert_same|apply has_insert_same]; rewrite Et; reflexivity.
  - apply astep_alloc in E as (tx & Et & G & ->). eapply arel_iff; [exact (arel_alloc I t n G)|simpl..].
    + intros m. rewrite elem_of_union, elem_of_singleton. reflexivity.
    + reflexivity.
    + apply has_insert_snoc. rewrite Et. reflexivity.
    + apply has_insert_same. rewrite Et. reflexivity.
  - apply astep_free in E as (tx & Et & G1 & G2 & ->). eapply arel_iff; [apply (arel_free I t n)|reflexivity..|simpl|simpl].
    + rewrite has_alt, Et. exact G1.
    + intros t' (tx' & H & X). exact (G2 _ _ H X).
    + apply has_insert_same. rewrite Et. reflexivity.
    + apply has_insert_snoc. rewrite Et. reflexivity.
  - simpl in E. destruct (a_txns s !! t) as [tx|] eqn:Et; [|discriminate]. injection E as <-.
    eapply arel_iff; [exact (arel_commit I t)|simpl..|apply has_delete|apply has_delete]; intros m.
    + rewrite release_spec, has_alt, Et. reflexivity.
    + rewrite pre_commit_spec, !has_alt, Et. reflexivity.
  - simpl in E. destruct (a_txns s !! t) as [tx|] eqn:Et; [|discriminate]. injection E as <-.
    eapply arel_iff; [exact (arel_abort I t)|simpl..|reflexivity|apply has_delete|apply has_delete]; intros m.
    rewrite release_spec, has_alt, Et. reflexivity.
Qed.

Lemma ainv_runs os : forall s, ainv s -> ainv (aruns s os).
Proof.
  induction os as [|o os IH]; intros s H; simpl; [exact H|].
  apply IH. unfold astep'. destruct (astep s o) eqn:E; [eapply ainv_step; eauto|exact H].
Qed.
Theorem ainv_reachable d os : ainv (aruns (a_init d) os).
Proof. apply ainv_runs, ainv_init. Qed.

(* no transaction running: the in-memory allocator is the on-disk bitmap *)
Theorem quiescent_agree s : ainv s -> a_txns s = ∅ -> a_mem s = a_disk s.
Proof.
  intros H E. apply set_eq. intros n. rewrite (i_mem _ H). split; [|auto].
  intros [X|(t & tx & X & _)]; [exact X|]. rewrite E, lookup_empty in X. discriminate.
Qed.
Corollary quiescent_agree_reachable d os : a_txns (aruns (a_init d) os) = ∅ -> a_mem (aruns (a_init d) os) = a_disk (aruns (a_init d) os).
Proof. apply quiescent_agree, ainv_reachable. Qed.

(* commit: exactly the transaction's allocations and frees become durable *)
Theorem commit_effect s t tx s' : astep s (ACommit t) = Some s' -> a_txns s !! t = Some tx ->
  (forall n, n ∈ a_disk s' <-> (n ∈ a_disk s \/ n ∈ t_al tx) /\ n ∉ t_fr tx) /\
  (forall n, n ∈ a_mem s' <-> n ∈ a_mem s /\ n ∉ t_fr tx) /\
  a_txns s' = delete t (a_txns s).
Proof.
  intros E Et. simpl in E. rewrite Et in E. injection E as <-. simpl.
  split; [intros n; apply pre_commit_spec|]. split; [intros n; apply release_spec|reflexivity].
Qed.
(* a number allocated and given back by the same transaction is free afterwards, on disk and in memory
   (inode.indbmap's undo when a child block cannot be had) *)
Corollary alloc_then_free_is_free s t tx s' n : astep s (ACommit t) = Some s' -> a_txns s !! t = Some tx ->
  n ∈ t_al tx -> n ∈ t_fr tx -> n ∉ a_disk s' /\ n ∉ a_mem s'.
Proof.
  intros E Et _ Hf. destruct (commit_effect _ _ _ _ E Et) as (D & M & _). split.
  - intros X. apply D in X as [_ X]. contradiction.
  - intros X. apply M in X as [_ X]. contradiction.
Qed.

(* abort: the disk is untouched, the allocator forgets exactly what the transaction took *)
Theorem abort_effect s t tx s' : astep s (AAbort t) = Some s' -> a_txns s !! t = Some tx ->
  a_disk s' = a_disk s /\ (forall n, n ∈ a_mem s' <-> n ∈ a_mem s /\ n ∉ t_al tx) /\ a_txns s' = delete t (a_txns s).
Proof.
  intros E Et. simpl in E. rewrite Et in E. injection E as <-. simpl.
  split; [reflexivity|]. split; [intros n; apply release_spec|reflexivity].
Qed.

(* an allocation or a free by transaction t *)
Definition by_txn (t : nat) (o : aop) : Prop := match o with AAlloc t' _ | AFree t' _ => t' = t | _ => False end.

(* Aborting t after one more allocation or free of t's is aborting before it: the allocation is released (the number
   was free in memory before), the free was only recorded. *)
Lemma abort_undoes s t o s0 : by_txn t o ->
  astep s (AAbort t) = Some s0 -> astep (astep' s o) (AAbort t) = Some s0.
Proof.
  intros Ho H. unfold astep'. destruct (astep s o) as [s'|] eqn:E; [|exact H].
  destruct o as [|t' n|t' n| |]; try contradiction; unfold by_txn in Ho; subst t'.
  - apply astep_alloc in E as (tx & Et & G & ->). simpl in *. rewrite Et in H. injection H as <-.
    rewrite lookup_insert, delete_insert_delete. simpl. do 2 f_equal. apply set_eq. intros m.
    rewrite !release_spec, elem_of_app, elem_of_list_singleton, elem_of_union, elem_of_singleton. naive_solver.
  - apply astep_free in E as (tx & Et & _ & _ & ->). simpl in *. rewrite Et in H.
    rewrite lookup_insert, delete_insert_delete. exact H.
Qed.
Lemma abort_undoes_run s t ops s0 : Forall (by_txn t) ops ->
  astep s (AAbort t) = Some s0 -> astep (aruns s ops) (AAbort t) = Some s0.
Proof.
  intros Fo. revert s. induction Fo as [|o ops Ho _ IH]; intros s H; simpl; [exact H|]. apply IH, abort_undoes; assumption.
Qed.
(* a transaction that begins, allocates and frees at will, and aborts, while nothing else happens, leaves no trace *)
Theorem begin_abort_identity s t ops s1 s2 : ainv s -> a_txns s !! t = None ->
  astep s (ABegin t) = Some s1 -> Forall (by_txn t) ops -> aruns s1 ops = s2 ->
  forall s3, astep s2 (AAbort t) = Some s3 ->
  a_disk s3 = a_disk s /\ a_mem s3 = a_mem s /\ a_txns s3 = a_txns s.
Proof.
  intros _ Hn E1 Fo <- s3 E3. simpl in E1. rewrite Hn in E1. injection E1 as <-.
  rewrite (abort_undoes_run _ t ops s Fo) in E3; [injection E3 as <-; auto|].
  simpl. rewrite lookup_insert, delete_insert by exact Hn. destruct s; reflexivity.
Qed.
