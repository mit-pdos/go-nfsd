(* The certificate check of Model/Lin.v is sound: an order that lin_check accepts shows the history linearizable. *)
From stdpp Require Import gmap.
From V Require Import Model.Afs Model.Lin.

Section LinProofs.
Variable P : params.

(* the specification: some sequential order of exactly these operations, in which an operation that
   completed before another began comes first, explains every reply and the final state *)
Definition linearizable (ops : list hop) (s0 : afs) (final : afs -> bool) : Prop :=
  exists order : list nat,
    Permutation order (seq 0 (length ops)) /\
    (forall p q i j oi oj, (p < q)%nat -> order !! p = Some i -> order !! q = Some j ->
       ops !! i = Some oi -> ops !! j = Some oj -> ~ (h_ret oj < h_inv oi)%N) /\
    exists s, replay P ops s0 order = Some s /\ final s = true.

Lemma nodupb_sound l : nodupb l = true -> List.NoDup l.
Proof.
  induction l as [|x r IH]; simpl; intros H; [constructor|].
  apply andb_true_iff in H as [H1 H2]. constructor; [|auto].
  intros Hin. apply negb_true_iff in H1. assert (existsb (Nat.eqb x) r = true); [|congruence].
  apply existsb_exists. exists x. split; [exact Hin|apply Nat.eqb_refl].
Qed.

Lemma is_perm_sound n order : is_perm n order = true -> Permutation order (seq 0 n).
Proof.
  unfold is_perm. rewrite !andb_true_iff. intros [[HL HB] HN].
  apply Nat.eqb_eq in HL.
  apply NoDup_Permutation_bis.
  - apply nodupb_sound. exact HN.
  - rewrite seq_length. lia.
  - intros x Hx. apply in_seq. rewrite forallb_forall in HB. specialize (HB x Hx). apply Nat.ltb_lt in HB. lia.
Qed.

Lemma rt_ok_sound ops order : rt_ok ops order = true ->
  forall p q i j oi oj, (p < q)%nat -> order !! p = Some i -> order !! q = Some j ->
    ops !! i = Some oi -> ops !! j = Some oj -> ~ (h_ret oj < h_inv oi)%N.
Proof.
  induction order as [|a r IH]; intros H p q i j oi oj Hpq Hp Hq Hi Hj; [rewrite lookup_nil in Hp; discriminate|].
  simpl in H. apply andb_true_iff in H as [H1 H2].
  destruct p as [|p].
  - simpl in Hp. injection Hp as ->. destruct q as [|q]; [lia|]. simpl in Hq.
    rewrite forallb_forall in H1. specialize (H1 j (proj1 (elem_of_list_In _ _) (elem_of_list_lookup_2 _ _ _ Hq))).
    rewrite Hi, Hj in H1. apply negb_true_iff, N.ltb_ge in H1. lia.
  - destruct q as [|q]; [lia|]. simpl in Hp, Hq. eapply (IH H2 p q); eauto. lia.
Qed.

Theorem lin_check_sound ops s0 final order :
  lin_check P ops s0 final order = true -> linearizable ops s0 final.
Proof.
  unfold lin_check. rewrite !andb_true_iff. intros [[HP HR] HF]. exists order.
  split; [apply is_perm_sound; exact HP|]. split; [apply rt_ok_sound; exact HR|].
  destruct (replay P ops s0 order) as [s|]; [|discriminate]. exists s. auto.
Qed.
End LinProofs.
