(* What a successful RENAME does on the reference, for every reachable state: the object is found under the new
   name, the old name is gone, the object itself (kind, generation, content, entries) is the same, and a replaced
   target no longer exists. *)
From stdpp Require Import gmap.
From V Require Import Model.Afs Proofs.AfsLaws Proofs.AfsInv.
Open Scope N_scope.

Section Rename.
Variable P : params.

Definition same_object (o o' : obj) : Prop :=
  o_kind o' = o_kind o /\ o_gen o' = o_gen o /\ o_size o' = o_size o /\ o_data o' = o_data o /\ o_ents o' = o_ents o.

(* what a move leaves behind, in any state that holds the three objects *)
Lemma move_effect s d1i d1 n1 d2i d2 n2 fi fo :
  objs s !! d1i = Some d1 -> objs s !! d2i = Some d2 -> objs s !! fi = Some fo -> fi <> d1i -> fi <> d2i ->
  let s' := move s d1i n1 d2i n2 fi in
  exists d1' d2' fo',
    objs s' !! d1i = Some d1' /\ objs s' !! d2i = Some d2' /\ objs s' !! fi = Some fo' /\
    o_ents d2' !! n2 = Some fi /\ ((d1i, n1) <> (d2i, n2) -> o_ents d1' !! n1 = None) /\
    same_object fo fo' /\ o_parent fo' = d2i /\
    (forall k, k <> d1i -> k <> d2i -> k <> fi -> objs s' !! k = objs s !! k).
Proof.
  intros A1 A2 A3 Hf1 Hf2 s'. unfold s'. rewrite move_upd. simpl.
  set (d1' := with_ents d1 (delete n1 (o_ents d1))).
  set (d2c := if decide (d1i = d2i) then d1' else d2).   (* what d2i holds once n1 has been dropped *)
  set (d2' := with_ents d2c (<[n2 := fi]> (o_ents d2c))).
  assert (L2 : <[d1i := d1']> (objs s) !! d2i = Some d2c).
  { unfold d2c. destruct (decide (d1i = d2i)) as [->|]; [apply lookup_insert|rewrite lookup_insert_ne by auto; exact A2]. }
  rewrite (alter_Some _ _ _ _ A1), (alter_Some _ _ _ _ L2), (alter_Some _ _ fi fo) by (rewrite !lookup_insert_ne by auto; exact A3).
  exists (if decide (d1i = d2i) then d2' else d1'), d2', (with_parent fo d2i).
  rewrite lookup_insert, (lookup_insert_ne _ fi d2i), (lookup_insert_ne _ fi d1i), lookup_insert by auto.
  split; [|repeat split].
  - destruct (decide (d1i = d2i)) as [->|]; [apply lookup_insert|]. rewrite lookup_insert_ne by auto. apply lookup_insert.
  - apply lookup_insert.
  - intros Hne. unfold d2', d2c. destruct (decide (d1i = d2i)) as [->|]; [|apply lookup_delete].
    simpl. rewrite lookup_insert_ne by congruence. apply lookup_delete.
  - intros k K1 K2 K3. rewrite !lookup_insert_ne by auto. reflexivity.
Qed.

Theorem rename_effect s h1 n1 h2 n2 s' d1i d1 d2i d2 fi fo :
  ainv s ->
  rename P s h1 n1 h2 n2 = (s', RStatus OK) ->
  resolve P s h1 = Some (d1i, d1) -> resolve P s h2 = Some (d2i, d2) ->
  o_ents d1 !! n1 = Some fi -> objs s !! fi = Some fo ->
  o_ents d2 !! n2 <> Some fi ->                      (* not the no-op "onto itself" *)
  exists d1' d2' fo',
    objs s' !! d1i = Some d1' /\ objs s' !! d2i = Some d2' /\ objs s' !! fi = Some fo' /\
    o_ents d2' !! n2 = Some fi /\
    ((d1i, n1) <> (d2i, n2) -> o_ents d1' !! n1 = None) /\
    same_object fo fo' /\ o_parent fo' = d2i /\
    (forall ti, o_ents d2 !! n2 = Some ti -> objs s' !! ti = None).
Proof.
  intros I Hr R1 R2 Hn1 Hf Hnot.
  destruct (rename_cases P s h1 n1 h2 n2) as [(e & He & E)|(? & ? & ? & ? & fi' & R1' & R2' & Hn1' & C)];
    [rewrite E in Hr; congruence|].
  rewrite R1 in R1'. rewrite R2 in R2'. injection R1' as <- <-. injection R2' as <- <-.
  assert (fi' = fi) as -> by congruence. destruct C as [[E _]|(fo' & M & C)]; [contradiction|].
  destruct M as (L1 & L2 & K1 & _ & _ & Hf' & Hf2). assert (fo' = fo) as -> by congruence.
  assert (Hf1 : fi <> d1i) by (eapply ainv_entry_ne; eauto).
  destruct (o_ents d2 !! n2) as [ti|] eqn:Hn2.
  - destruct C as [(Htf & to & Ht & _ & Et) E]. rewrite E in Hr. injection Hr as <-.
    assert (Ht2 : ti <> d2i) by (eapply ainv_entry_ne; eauto).
    assert (Ht1 : ti <> d1i).
    { intros ->. assert (to = d1) as -> by congruence. rewrite (Et K1), lookup_empty in Hn1. discriminate. }
    destruct (move_effect (del_obj s ti) d1i d1 n1 d2i d2 n2 fi fo) as (d1' & d2' & fo' & A1 & A2 & A3 & A4 & A5 & A6 & A7 & A8);
      try (simpl; rewrite lookup_delete_ne by auto); try assumption.
    exists d1', d2', fo'. repeat (split; [assumption|]).
    intros t [= <-]. rewrite A8 by auto. apply lookup_delete.
  - rewrite C in Hr. injection Hr as <-.
    destruct (move_effect s d1i d1 n1 d2i d2 n2 fi fo L1 L2 Hf Hf1 Hf2) as (d1' & d2' & fo' & A1 & A2 & A3 & A4 & A5 & A6 & A7 & A8).
    exists d1', d2', fo'. repeat (split; [assumption|]). discriminate.
Qed.
End Rename.
