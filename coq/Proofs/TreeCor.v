(* Corollaries of the index-tree theorems (Proofs/Tree.v) in the form the properties use them. *)
From Coq Require Import List Arith Permutation.
From V Require Import Proofs.Tree.

Section Cor.
Variable NB : nat.
Hypothesis NBpos : 0 < NB.

(* mapping a block (allocating on demand) never makes a block have two owners and loses none *)
Theorem indbmap_ownership lvl root off d fr :
  off < pw NB lvl -> NoDup (blocks NB d lvl root ++ fr) -> free_zero d fr -> ~ In 0 fr ->
  let '(blk, root', d', fr') := indbmap NB lvl root off d fr in
  NoDup (blocks NB d' lvl root' ++ fr') /\
  Permutation (blocks NB d' lvl root' ++ fr') (blocks NB d lvl root ++ fr) /\
  free_zero d' fr' /\
  (forall off', off' < pw NB lvl -> off' <> off -> leaf NB d' lvl root' off' = leaf NB d lvl root off').
Proof.
  intros Ho Hn Hz H0. pose proof (indbmap_spec NB NBpos lvl root off d fr Ho Hn Hz H0) as S.
  destruct (indbmap NB lvl root off d fr) as [[[blk root'] d'] fr'].
  destruct S as [_ Qo Qp Qz _ _ _]. split; [|auto].
  exact (Permutation_NoDup (Permutation_sym Qp) Hn).
Qed.

(* The code as repaired (fix 7466992): when the mapping fails because no block is left, every index block the
   call had just allocated is given back, nothing has been written, and the inode keeps its old root - the call
   is undone.  [indbmap_undo] is that function; its ownership statement is the one above with the failure case
   made explicit: a failed mapping changes neither the tree, nor the disk, nor the free list. *)
Definition indbmap_undo (lvl root off : nat) (d : disk) (fr : list nat) : nat * nat * disk * list nat :=
  let '(blk, root', d', fr') := indbmap NB lvl root off d fr in
  if Nat.eqb blk 0 then (0, root, d, fr) else (blk, root', d', fr').

Theorem indbmap_undo_ownership lvl root off d fr :
  off < pw NB lvl -> NoDup (blocks NB d lvl root ++ fr) -> free_zero d fr -> ~ In 0 fr ->
  let '(blk, root', d', fr') := indbmap_undo lvl root off d fr in
  NoDup (blocks NB d' lvl root' ++ fr') /\
  Permutation (blocks NB d' lvl root' ++ fr') (blocks NB d lvl root ++ fr) /\
  free_zero d' fr' /\
  (forall off', off' < pw NB lvl -> off' <> off -> leaf NB d' lvl root' off' = leaf NB d lvl root off') /\
  (blk = 0 -> root' = root /\ d' = d /\ fr' = fr).
Proof.
  intros Ho Hn Hz H0. unfold indbmap_undo.
  pose proof (indbmap_ownership lvl root off d fr Ho Hn Hz H0) as S.
  destruct (indbmap NB lvl root off d fr) as [[[blk root'] d'] fr'].
  destruct (Nat.eqb_spec blk 0) as [E|E].
  - repeat split; auto.
  - destruct S as (S1 & S2 & S3 & S4). repeat (split; [assumption|]). intros C. contradiction.
Qed.

(* freeing from the top: ownership stays a permutation, freed blocks are zero, lower offsets keep
   their blocks *)
Theorem shrink_ownership lvl root bn d fr :
  bn < pw NB lvl -> NoDup (blocks NB d lvl root ++ fr) -> free_zero d fr -> trimmed NB d lvl root bn ->
  let '(root', d', fr') := shrink_one NB lvl root bn d fr in
  NoDup (blocks NB d' lvl root' ++ fr') /\
  Permutation (blocks NB d' lvl root' ++ fr') (blocks NB d lvl root ++ fr) /\
  free_zero d' fr' /\
  (forall off', off' < pw NB lvl -> leaf NB d' lvl root' off' = if off' <? bn then leaf NB d lvl root off' else 0).
Proof.
  intros Hb Hn Hz Ht. pose proof (shrink_one_spec NB NBpos lvl root bn d fr Hb Hn Hz Ht) as S.
  destruct (shrink_one NB lvl root bn d fr) as [[root' d'] fr'].
  destruct S as [_ Pl Pp Pz _ _]. split; [|auto].
  exact (Permutation_NoDup (Permutation_sym Pp) Hn).
Qed.

(* freeing down to logical block 0 gives every block of the tree back *)
Theorem shrink_to_zero_returns_all lvl root d fr :
  NoDup (blocks NB d lvl root ++ fr) -> free_zero d fr -> trimmed NB d lvl root 0 ->
  let '(root', d', fr') := shrink_one NB lvl root 0 d fr in
  root' = 0 /\ Permutation fr' (blocks NB d lvl root ++ fr) /\ free_zero d' fr'.
Proof.
  intros Hn Hz Ht. pose proof (shrink_one_spec NB NBpos lvl root 0 d fr (pw_pos NB NBpos lvl) Hn Hz Ht) as S.
  destruct (shrink_one NB lvl root 0 d fr) as [[root' d'] fr'].
  destruct S as [Pr _ Pp Pz _ _]. simpl in Pr. subst root'. rewrite blocks_zero in Pp. auto.
Qed.
End Cor.
