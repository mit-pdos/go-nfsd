(* Laws of the abstract file system AM (Model/Afs.v): the reference that the
   sequential-semantics properties are stated against.
   [step_cases] says what a call can do to the state; the invariants of the reference (handles here, the
   namespace in AfsInv.v, file contents in AfsData.v) are each proved once per kind of change. *)
From stdpp Require Import gmap.
From V Require Import Model.Lib Model.Afs Proofs.LibFacts.
Open Scope N_scope.

Definition is_error (r : reply) : Prop :=
  match r with RStatus OK => False | RStatus _ => True | _ => False end.

Lemma resolve_Some P s h i o : resolve P s h = Some (i, o) -> objs s !! i = Some o.
Proof.
  unfold resolve. destruct (parse_handle h) as [[i' g]|]; [|discriminate].
  destruct (i' <? p_ninode P); [|discriminate]. destruct (objs s !! i') eqn:E; [|discriminate].
  destruct (o_gen o0 =? g); [|discriminate]. intros [= <- <-]. exact E.
Qed.

Lemma resolve_set P s h i o o' : resolve P s h = Some (i, o) -> o_gen o' = o_gen o ->
  resolve P (set_obj s i o') h = Some (i, o').
Proof.
  unfold resolve. destruct (parse_handle h) as [[i' g]|]; [|discriminate].
  destruct (i' <? p_ninode P); [|discriminate]. destruct (objs s !! i') as [o0|] eqn:E; [|discriminate].
  destruct (o_gen o0 =? g) eqn:Eg; [|discriminate]. intros [= <- <-] Hg. simpl.
  rewrite lookup_insert, Hg, Eg. reflexivity.
Qed.

Lemma fresh_facts P s i g : fresh P s i g = true -> objs s !! i = None /\ i <> ROOT /\ (i, g) ∉ issued s.
Proof.
  unfold fresh. intros H. do 2 apply andb_prop in H as [H _]. apply andb_prop in H as [H H2]. apply andb_prop in H as [H Hi].
  apply negb_true_iff, bool_decide_eq_false in H, Hi. apply N.leb_le in H2.
  split; [apply eq_None_not_Some, H|]. split; [unfold ROOT; lia|exact Hi].
Qed.

(* [move] rewrites up to three objects, each only if it is there: it is three [upd_obj] *)
Definition upd_obj (s : afs) (i : inum) (f : obj -> obj) : afs :=
  {| objs := alter f i (objs s); issued := issued s; unstable_opt := unstable_opt s |}.

Lemma alter_Some {A} (f : A -> A) (m : gmap inum A) i x : m !! i = Some x -> alter f i m = <[i := f x]> m.
Proof. intros H. rewrite <- (alter_insert m i f x), (insert_id _ _ _ H). reflexivity. Qed.

Lemma set_obj_id s i o : objs s !! i = Some o -> set_obj s i o = s.
Proof. intros H. destruct s. unfold set_obj. simpl in *. f_equal. apply insert_id, H. Qed.

Lemma upd_obj_match s i f :
  match objs s !! i with Some o => set_obj s i (f o) | None => s end = upd_obj s i f.
Proof.
  destruct s as [m u b]. unfold upd_obj, set_obj. simpl. destruct (m !! i) as [o|] eqn:E; f_equal; symmetry.
  - apply alter_Some, E.
  - apply alter_id. intros o Ho. congruence.
Qed.

Lemma move_upd s d1i n1 d2i n2 fi :
  move s d1i n1 d2i n2 fi =
  upd_obj (upd_obj (upd_obj s d1i (fun d => with_ents d (delete n1 (o_ents d))))
                   d2i (fun d => with_ents d (<[n2 := fi]> (o_ents d))))
          fi (fun fo => with_parent fo d2i).
Proof. unfold move. rewrite !upd_obj_match. reflexivity. Qed.

Lemma upd_obj_lookup s i f j :
  objs (upd_obj s i f) !! j = if decide (j = i) then f <$> objs s !! i else objs s !! j.
Proof. simpl. destruct (decide (j = i)) as [->|]; [apply lookup_alter|apply lookup_alter_ne; auto]. Qed.

Lemma set_obj_upd s i o f : objs s !! i = Some o -> set_obj s i (f o) = upd_obj s i f.
Proof. intros H. rewrite <- upd_obj_match, H. reflexivity. Qed.
Lemma upd_obj_ext s i f g : (forall o, objs s !! i = Some o -> f o = g o) -> upd_obj s i f = upd_obj s i g.
Proof. intros H. unfold upd_obj. f_equal. apply alter_ext. exact H. Qed.
Lemma upd_obj_twice s i f g : upd_obj (upd_obj s i f) i g = upd_obj s i (g ∘ f).
Proof. unfold upd_obj. simpl. f_equal. symmetry. apply alter_compose. Qed.
Lemma upd_obj_comm s i f j g : i <> j -> upd_obj (upd_obj s i f) j g = upd_obj (upd_obj s j g) i f.
Proof. intros H. unfold upd_obj. simpl. f_equal. apply alter_commute. auto. Qed.
Lemma upd_obj_del s i f t : i <> t -> upd_obj (del_obj s t) i f = del_obj (upd_obj s i f) t.
Proof. intros H. unfold upd_obj, del_obj. simpl. f_equal. symmetry. apply delete_alter_ne. auto. Qed.

(* the size and content a SETATTR or a WRITE gives a file *)
Inductive recontent (o : obj) : N -> gmap N bytes -> Prop :=
| rc_keep : recontent o (o_size o) (o_data o)
| rc_write off d : recontent o (N.max (o_size o) (off + lenN d)) (write_bytes (o_data o) off d)
| rc_resize sz : recontent o sz (if sz <? o_size o then trunc_data (o_data o) sz else o_data o).

(* the guards of RENAME that do not concern the target name; of the no-cycle test only [fi <> d2i] is used *)
Definition movable (s : afs) (d1i : inum) (d1 : obj) (n1 : name) (d2i : inum) (d2 : obj) (fi : inum) (fo : obj) : Prop :=
  objs s !! d1i = Some d1 /\ objs s !! d2i = Some d2 /\ o_kind d1 = KDir /\ o_kind d2 = KDir /\
  o_ents d1 !! n1 = Some fi /\ objs s !! fi = Some fo /\ fi <> d2i.
(* a RENAME may replace another object of the same kind that has no entries *)
Definition replaceable (s : afs) (fi : inum) (fo : obj) (ti : inum) : Prop :=
  ti <> fi /\ exists to, objs s !! ti = Some to /\ o_kind to = o_kind fo /\ (o_kind to = KDir -> o_ents to = ∅).

Inductive change (P : params) (s : afs) : afs -> Prop :=
| ch_edit i o sz m a t :
    objs s !! i = Some o -> recontent o sz m ->
    change P s (set_obj s i (with_times (with_content o sz m) a t))
| ch_create di d n i g k content :
    objs s !! di = Some d -> o_kind d = KDir -> o_ents d !! n = None -> fresh P s i g = true ->
    change P s {| objs := <[i := with_content (new_obj k g di) (lenN content) (write_bytes ∅ 0 content)]>
                            (<[di := with_ents d (<[n := i]> (o_ents d))]> (objs s));
                  issued := gs_add (i, g) (issued s); unstable_opt := unstable_opt s |}
| ch_unlink di d n i o :
    objs s !! di = Some d -> o_ents d !! n = Some i -> objs s !! i = Some o ->
    (o_kind o = KDir -> o_ents o = ∅) ->
    change P s (unlink s di d n i)
| ch_move d1i d1 n1 d2i d2 n2 fi fo :
    movable s d1i d1 n1 d2i d2 fi fo -> o_ents d2 !! n2 = None ->
    change P s (move s d1i n1 d2i n2 fi)
| ch_move_over d1i d1 n1 d2i d2 n2 fi fo ti :
    movable s d1i d1 n1 d2i d2 fi fo -> o_ents d2 !! n2 = Some ti -> replaceable s fi fo ti ->
    change P s (move (del_obj s ti) d1i n1 d2i n2 fi).

(* the left disjunct of the `_cases` lemmas, in the form their goals take once the operation is unfolded *)
Lemma refused (s : afs) e (X : Prop) : e <> OK -> (exists e', e' <> OK /\ (s, RStatus e) = (s, RStatus e')) \/ X.
Proof. eauto. Qed.

Lemma is_dir_true o : is_dir o = true <-> o_kind o = KDir.
Proof. apply bool_decide_eq_true. Qed.

Lemma is_ancestor_self s fuel i : is_ancestor s fuel i i = true.
Proof. destruct fuel; simpl; rewrite N.eqb_refl; reflexivity. Qed.

(* read-only procedures never change the state *)
Definition read_only (c : call) : bool :=
  match c with
  | CGetattr _ | CLookup _ _ | CAccess _ | CReadlink _ | CRead _ _ _ | CReaddir _ _ | CCommit _ _ _
  | CFsinfo _ | CPathconf _ | CUnsupported | CNull | CRestart => true
  | _ => false end.
Theorem read_only_identity P s c h : read_only c = true -> fst (step P s c h) = s.
Proof.
  destruct c; try discriminate; intros _; simpl; try reflexivity; unfold do_read;
    (destruct (resolve P s _) as [[i o]|]; [|reflexivity]); try reflexivity.
  - destruct (negb _); [reflexivity|]. destruct (lookup_name _ _ _); [|reflexivity]. destruct (objs s !! _); reflexivity.
  - destruct (bool_decide _); reflexivity.
  - destruct (negb _); [reflexivity|]. destruct (_ <=? _); reflexivity.
  - destruct (is_dir o); reflexivity.
  - destruct (negb _); [reflexivity|]. destruct (_ <? _); reflexivity.
Qed.

Section Step.
Variable P : params.

(* RENAME: refused, or onto the same object (nothing happens), or a move *)
Lemma rename_cases s h1 n1 h2 n2 :
  (exists e, e <> OK /\ rename P s h1 n1 h2 n2 = (s, RStatus e)) \/
  exists d1i d1 d2i d2 fi, resolve P s h1 = Some (d1i, d1) /\ resolve P s h2 = Some (d2i, d2) /\
    o_ents d1 !! n1 = Some fi /\
    (o_ents d2 !! n2 = Some fi /\ rename P s h1 n1 h2 n2 = (s, RStatus OK) \/
     exists fo, movable s d1i d1 n1 d2i d2 fi fo /\
       match o_ents d2 !! n2 with
       | None => rename P s h1 n1 h2 n2 = (move s d1i n1 d2i n2 fi, RStatus OK)
       | Some ti => replaceable s fi fo ti /\
                    rename P s h1 n1 h2 n2 = (move (del_obj s ti) d1i n1 d2i n2 fi, RStatus OK)
       end).
Proof.
  (* the model elaborates some lookups at value type N and some at inum: rewriting needs them to be one *)
  unfold rename, inum.
  destruct (is_dots n1); [apply refused; discriminate|].
  destruct (resolve P s h1) as [[d1i d1]|] eqn:R1; [|apply refused; discriminate].
  destruct (resolve P s h2) as [[d2i d2]|] eqn:R2; [|apply refused; discriminate].
  destruct (negb (is_dir d1) || negb (is_dir d2)) eqn:Kd; [apply refused; discriminate|].
  apply orb_false_iff in Kd as [K1 K2]. apply negb_false_iff, is_dir_true in K1, K2.
  destruct (_ !! n1) as [fi|] eqn:Hn1; [|apply refused; discriminate].
  destruct (negb (wf_name P n2)); [apply refused; discriminate|].
  destruct (_ !! fi) as [fo|] eqn:Hf; [|apply refused; discriminate].
  destruct (is_dir fo && is_ancestor s (N.to_nat (p_ninode P)) fi d2i) eqn:Anc; [apply refused; discriminate|].
  assert (M : movable s d1i d1 n1 d2i d2 fi fo).
  { apply resolve_Some in R1, R2. repeat (split; [assumption|]). intros ->. unfold inum in *.
    rewrite is_ancestor_self, andb_true_r in Anc. apply is_dir_true in K2. congruence. }
  destruct (_ !! n2) as [ti|] eqn:Hn2.
  - destruct (N.eqb_spec ti fi) as [->|Etf]; [right; exists d1i, d1, d2i, d2, fi; auto 7|].
    destruct (_ !! ti) as [to|] eqn:Ht; [|apply refused; discriminate].
    destruct (negb (bool_decide (o_kind to = o_kind fo))) eqn:Kk; [apply refused; discriminate|].
    apply negb_false_iff, bool_decide_eq_true in Kk.
    destruct (is_dir to && _) eqn:Em; [apply refused; discriminate|].
    assert (T : replaceable s fi fo ti).
    { split; [exact Etf|]. exists to. split; [exact Ht|]. split; [exact Kk|]. intros Kt.
      apply is_dir_true in Kt. rewrite Kt in Em. apply negb_false_iff, bool_decide_eq_true in Em. exact Em. }
    right. exists d1i, d1, d2i, d2, fi. repeat (split; [first [reflexivity|assumption]|]). right. exists fo. rewrite Hn2. auto.
  - right. exists d1i, d1, d2i, d2, fi. repeat (split; [first [reflexivity|assumption]|]). right. exists fo. rewrite Hn2. auto.
Qed.

(* CREATE, MKDIR, SYMLINK: no change, or a new object under the handle the implementation chose *)
Lemma create_cases s h n k content hi :
  (exists e, create P s h n k content hi = (s, RStatus e)) \/
  exists di d hh i g, hi = HHandle hh /\ parse_handle hh = Some (i, g) /\
    objs s !! di = Some d /\ o_kind d = KDir /\ o_ents d !! n = None /\ fresh P s i g = true /\
    let o := with_content (new_obj k g di) (lenN content) (write_bytes ∅ 0 content) in
    create P s h n k content hi =
      ({| objs := <[i := o]> (<[di := with_ents d (<[n := i]> (o_ents d))]> (objs s));
          issued := gs_add (i, g) (issued s); unstable_opt := unstable_opt s |}, RHandle hh (attrs_of i o)).
Proof.
  unfold create. destruct (resolve P s h) as [[di d]|] eqn:R; [|eauto]. apply resolve_Some in R.
  destruct (negb (is_dir d)) eqn:Kd; [eauto|]. apply negb_false_iff, is_dir_true in Kd.
  destruct (negb (wf_name P n)); [eauto|].
  destruct (bool_decide _) eqn:Ex; [eauto|]. apply bool_decide_eq_false, eq_None_not_Some in Ex.
  destruct (p_wtmax P <? lenN content); [eauto|].
  destruct hi as [|hh| |]; eauto. destruct (parse_handle hh) as [[i g]|] eqn:Ph; [|eauto].
  destruct (negb (fresh P s i g)) eqn:Fr; [eauto|]. apply negb_false_iff in Fr.
  right. exists di, d, hh, i, g. auto 10.
Qed.

(* WRITE: refused, or the first n bytes are written (n = cnt unless the implementation reported a short write) *)
Definition written (o : obj) (off n : N) (d : bytes) : obj :=
  if n =? 0 then o else with_content o (N.max (o_size o) (off + n)) (write_bytes (o_data o) off (takeN n d)).

Lemma write_cases s h off cnt st d hi :
  (exists e, e <> OK /\ do_write P s h off cnt st d hi = (s, RStatus e)) \/
  exists i o n, resolve P s h = Some (i, o) /\ o_kind o = KFile /\ n <= cnt /\ cnt = lenN d /\
    cnt <= p_wtmax P /\ off + cnt <= p_maxfilesize P /\
    do_write P s h off cnt st d hi =
      (set_obj s i (written o off n d),
       RWritten n (if unstable_opt s then st else FileSync) (attrs_of i (written o off n d))).
Proof.
  unfold do_write. destruct (resolve P s h) as [[i o]|]; [|apply refused; discriminate].
  destruct (negb _) eqn:Kf; [apply refused; discriminate|]. apply negb_false_iff, bool_decide_eq_true in Kf.
  destruct (negb (cnt =? lenN d)) eqn:Ec; [apply refused; discriminate|]. apply negb_false_iff, N.eqb_eq in Ec.
  destruct (N.ltb_spec (p_wtmax P) cnt); [apply refused; discriminate|].
  destruct (N.ltb_spec (p_maxfilesize P) (off + cnt)); [apply refused; discriminate|].
  destruct hi as [|hh| |k]; [| |apply refused; discriminate|]; right.
  1,2: exists i, o, cnt; repeat (split; [first [reflexivity|assumption|lia]|]); reflexivity.
  exists i, o, (N.min k cnt). repeat (split; [first [reflexivity|assumption|lia]|]). reflexivity.
Qed.

(* every call leaves the state alone or, answering with a success, changes it in one of the five ways *)
Definition effect (s : afs) (x : afs * reply) : Prop := fst x = s \/ (~ is_error (snd x) /\ change P s (fst x)).

Theorem step_cases s c hi : effect s (step P s c hi).
Proof.
  destruct (read_only c) eqn:Ro; [left; apply read_only_identity, Ro|].
  assert (Cr : forall h n k content, effect s (create P s h n k content hi)).
  { intros h n k content. unfold effect.
    destruct (create_cases s h n k content hi) as [(e & ->)|(di & d & hh & i & g & _ & _ & ? & ? & ? & ? & ->)]; [auto|].
    right. split; [simpl; auto|]. now apply ch_create. }
  assert (Rm : forall h n wd, effect s (remove P s h n wd)).
  { intros h n wd. unfold effect, remove. destruct (is_dots n); [auto|].
    destruct (resolve P s h) as [[di d]|] eqn:R; [|auto]. apply resolve_Some in R.
    destruct (is_dir d); [|auto]. destruct (_ !! n) as [i|] eqn:Hn; [|auto]. destruct (_ !! i) as [o|] eqn:Hi; [|auto].
    destruct wd, (is_dir o) eqn:Kd; simpl; auto.
    - destruct (negb _) eqn:Em; [auto|]. apply negb_false_iff, bool_decide_eq_true in Em.
      right. split; [simpl; auto|]. apply (ch_unlink P s di d n i o R Hn Hi). auto.
    - apply bool_decide_eq_false in Kd.
      right. split; [simpl; auto|]. apply (ch_unlink P s di d n i o R Hn Hi). intros K. contradiction. }
  unfold effect. destruct c; try discriminate Ro; simpl.
  - (* setattr *)
    unfold do_setattr. destruct (resolve P s h) as [[i o]|] eqn:R; [|auto]. apply resolve_Some in R.
    destruct size as [sz|]; [|right; split; [simpl; auto|apply (ch_edit P s i o _ _ _ _ R (rc_keep o))]].
    destruct (negb _); [auto|]. destruct (_ <? _); [auto|].
    destruct hi; auto; right; (split; [simpl; auto|apply (ch_edit P s i o _ _ _ _ R (rc_resize o sz))]).
  - (* write *)
    destruct (write_cases s h off cnt st d hi) as [(e & He & ->)|(i & o & n & R & _ & Hn & -> & _ & _ & ->)]; [auto|].
    apply resolve_Some in R. unfold written. simpl. destruct (n =? 0); [left; apply set_obj_id, R|].
    right. split; [auto|]. pose proof (rc_write o off (takeN n d)) as C. rewrite lenN_takeN in C by exact Hn.
    exact (ch_edit P s i o _ _ (o_atime o) (o_mtime o) R C).
  - destruct exclusive; [auto|apply Cr].
  - apply Cr.
  - apply Cr.
  - apply Rm.
  - apply Rm.
  - (* rename *)
    destruct (rename_cases s h1 n1 h2 n2) as [(e & _ & ->)|(d1i & d1 & d2i & d2 & fi & _ & _ & _ & [[_ ->]|(fo & M & C)])]; [auto..|].
    destruct (o_ents d2 !! n2) as [ti|] eqn:Hn2.
    + destruct C as [T ->]. right. split; [simpl; auto|]. eapply ch_move_over; eauto.
    + rewrite C. right. split; [simpl; auto|]. eapply ch_move; eauto.
Qed.
End Step.

(* C09 on the reference: a call answered with an error changes nothing *)
Theorem failed_call_identity P s c h : is_error (snd (step P s c h)) -> fst (step P s c h) = s.
Proof. intros H. destruct (step_cases P s c h) as [E|[N _]]; [exact E|contradiction]. Qed.

(* what every call keeps, every history keeps *)
Lemma run_invariant P (I : afs -> Prop) :
  (forall s c hi, I s -> I (fst (step P s c hi))) -> forall cs s, I s -> I (run P s cs).
Proof. intros H cs. induction cs as [|[c hi] cs IH]; intros s Hs; [exact Hs|]. unfold run. simpl. apply IH, H, Hs. Qed.

(* procedures the server does not support fail without effect *)
Theorem unsupported_no_effect P s h : step P s CUnsupported h = (s, RStatus NOTSUPP).
Proof. reflexivity. Qed.
Theorem exclusive_create_no_effect P s d n h : step P s (CCreate d n true) h = (s, RStatus NOTSUPP).
Proof. reflexivity. Qed.

(* a clean restart is invisible *)
Theorem restart_identity P s h : step P s CRestart h = (s, RStatus OK).
Proof. reflexivity. Qed.

(* handles (C08) *)
Definition gen_of (s : afs) (i : inum) : option N := o_gen <$> (objs s !! i).

Lemma gen_of_lookup s i o : objs s !! i = Some o -> gen_of s i = Some (o_gen o).
Proof. intros H. unfold gen_of. rewrite H. reflexivity. Qed.
Lemma gen_of_set s i o o' j : objs s !! i = Some o -> o_gen o' = o_gen o -> gen_of (set_obj s i o') j = gen_of s j.
Proof.
  intros H Hg. unfold gen_of, set_obj. simpl. destruct (decide (j = i)) as [->|].
  - rewrite lookup_insert, H. simpl. congruence.
  - rewrite lookup_insert_ne by auto. reflexivity.
Qed.
Lemma gen_of_del s i j g : gen_of (del_obj s i) j = Some g -> gen_of s j = Some g.
Proof.
  unfold gen_of, del_obj. simpl. destruct (decide (j = i)) as [->|]; [rewrite lookup_delete; discriminate|].
  rewrite lookup_delete_ne by auto. auto.
Qed.
Lemma gen_of_upd s i f j : (forall o, o_gen (f o) = o_gen o) -> gen_of (upd_obj s i f) j = gen_of s j.
Proof.
  intros Hf. unfold gen_of. rewrite upd_obj_lookup. destruct (decide (j = i)) as [->|]; [|reflexivity].
  destruct (objs s !! i); simpl; [rewrite Hf|]; reflexivity.
Qed.
Lemma gen_of_move s d1i n1 d2i n2 fi j : gen_of (move s d1i n1 d2i n2 fi) j = gen_of s j.
Proof. rewrite move_upd, !gen_of_upd by reflexivity. reflexivity. Qed.

(* no call forgets a pair it has issued; the generation of a live object never changes, and a new object
   carries a pair never issued before *)
Lemma change_gen P s s' : change P s s' ->
  issued s ⊆ issued s' /\
  forall j g, gen_of s' j = Some g -> gen_of s j = Some g \/ ((j, g) ∉ issued s /\ (j, g) ∈ issued s').
Proof.
  intros [i o sz m a t Hi _|di d n i g k content Hd _ _ Fr|di d n i o Hd _ _ _|? ? ? ? ? ? ? ? _ _|? ? ? ? ? ? ? ? ti _ _ _].
  - split; [reflexivity|]. intros j g. rewrite (gen_of_set _ _ _ _ _ Hi) by reflexivity. auto.
  - apply fresh_facts in Fr as (_ & _ & Fr). simpl. split; [intros p Hp; apply elem_of_gs_add; auto|].
    intros j g'. unfold gen_of at 1. simpl. destruct (decide (j = i)) as [->|Hij].
    + rewrite lookup_insert. intros [= <-]. right. split; [exact Fr|apply elem_of_gs_add; auto].
    + rewrite lookup_insert_ne by auto. intros H. left. rewrite <- H.
      symmetry. apply (gen_of_set s di d (with_ents d (<[n:=i]> (o_ents d))) j Hd eq_refl).
  - split; [reflexivity|]. intros j g H. apply gen_of_del in H. rewrite (gen_of_set _ _ _ _ _ Hd) in H by reflexivity. auto.
  - split; [rewrite move_upd; reflexivity|]. intros j g. rewrite gen_of_move. auto.
  - split; [rewrite move_upd; reflexivity|]. intros j g. rewrite gen_of_move. intros H. apply gen_of_del in H. auto.
Qed.

Definition dead (s : afs) (i g : N) : Prop := (i, g) ∈ issued s /\ gen_of s i <> Some g.

(* a handle that is dead stays dead across every later call, whatever its arguments *)
Theorem dead_forever P s c h i g : dead s i g -> dead (fst (step P s c h)) i g.
Proof.
  intros D. destruct (step_cases P s c h) as [->|[_ C]]; [exact D|].
  destruct (change_gen _ _ _ C) as [M G], D as [Hi Hd]. split; [exact (M _ Hi)|].
  intros H. destruct (G _ _ H) as [|[? _]]; contradiction.
Qed.

Theorem dead_forever_run P cs : forall s i g, dead s i g -> dead (run P s cs) i g.
Proof. intros s i g. apply (run_invariant P (fun s => dead s i g)). intros s' c h. apply dead_forever. Qed.

(* a dead handle is refused as stale by resolution *)
Lemma dead_resolve P s i g : dead s i g -> i < 2 ^ 64 -> g < 2 ^ 64 -> resolve P s (mk_handle i g) = None \/
  exists j g', parse_handle (mk_handle i g) = Some (j, g') /\ (j, g') <> (i, g).
Proof.
  intros [_ Hd] _ _. unfold resolve. destruct (parse_handle (mk_handle i g)) as [[j g']|] eqn:E; [|auto].
  destruct (decide ((j, g') = (i, g))) as [[= -> ->]|]; [|right; eauto].
  left. destruct (i <? p_ninode P); [|reflexivity].
  destruct (objs s !! i) as [o|] eqn:Eo; [|reflexivity].
  destruct (o_gen o =? g) eqn:Eg; [|reflexivity]. apply N.eqb_eq in Eg.
  exfalso. apply Hd. rewrite (gen_of_lookup _ _ _ Eo). f_equal. exact Eg.
Qed.

(* a successful creation returns a pair never issued before: no two objects ever share a handle *)
Theorem create_fresh P s d n k content hh s' a :
  create P s d n k content (HHandle hh) = (s', RHandle hh a) ->
  exists i g, parse_handle hh = Some (i, g) /\ (i, g) ∉ issued s /\ (i, g) ∈ issued s' /\ gen_of s' i = Some g.
Proof.
  destruct (create_cases P s d n k content (HHandle hh)) as [(e & ->)|(di & dd & hh' & i & g & [= <-] & Ph & _ & _ & _ & Fr & ->)];
    [discriminate|].
  intros [= <- _]. exists i, g. apply fresh_facts in Fr as (_ & _ & Fr).
  split; [exact Ph|]. split; [exact Fr|]. simpl. split; [apply elem_of_gs_add; auto|].
  unfold gen_of. simpl. rewrite lookup_insert. reflexivity.
Qed.

(* every handle-typed argument position of every procedure *)
Definition handles_of (c : call) : list handle :=
  match c with
  | CGetattr h | CSetattr h _ _ _ | CLookup h _ | CAccess h | CReadlink h | CRead h _ _ | CWrite h _ _ _ _
  | CCreate h _ _ | CMkdir h _ | CSymlink h _ _ | CRemove h _ | CRmdir h _ | CReaddir h _ | CCommit h _ _
  | CFsinfo h | CPathconf h => [h]
  | CRename h1 _ h2 _ => [h1; h2]
  | CUnsupported | CNull | CRestart => []
  end.

(* whether a procedure looks at its handles before anything else: all do, except that REMOVE/RMDIR/RENAME of
   "." or ".." and an exclusive CREATE are refused for those arguments first *)
Definition stale_first (c : call) : bool :=
  match c with
  | CRemove _ n | CRmdir _ n | CRename _ n _ _ => negb (is_dots n)
  | CCreate _ _ excl => negb excl
  | _ => true end.

Lemma stale_reply P s c hi h : h ∈ handles_of c -> resolve P s h = None ->
  step P s c hi = (s, RStatus (if stale_first c then STALE else match c with CCreate _ _ _ => NOTSUPP | _ => ERR end)).
Proof.
  intros Hin Hr.
  destruct c; simpl in Hin; repeat (apply elem_of_cons in Hin as [->|Hin]); try (apply elem_of_nil in Hin; contradiction);
    simpl; unfold do_setattr, do_read, do_write, create, remove, rename; rewrite ?Hr; try reflexivity.
  - destruct exclusive; reflexivity.
  - destruct (is_dots n); reflexivity.
  - destruct (is_dots n); reflexivity.
  - destruct (is_dots n1); reflexivity.
  - destruct (is_dots n1); [reflexivity|]. destruct (resolve P s h1) as [[? ?]|]; reflexivity.
Qed.

(* a request carrying a handle that does not resolve fails and changes nothing ... *)
Theorem stale_everywhere P s c hi h :
  h ∈ handles_of c -> resolve P s h = None ->
  is_error (snd (step P s c hi)) /\ fst (step P s c hi) = s.
Proof.
  intros Hin Hr. rewrite (stale_reply P s c hi h Hin Hr). split; [|reflexivity].
  simpl. destruct (stale_first c); [exact I|]. destruct c; exact I.
Qed.

(* ... and the failure is STALE unless the request is refused for its other arguments first *)
Theorem stale_class P s c hi h :
  h ∈ handles_of c -> resolve P s h = None -> stale_first c = true ->
  snd (step P s c hi) = RStatus STALE.
Proof. intros Hin Hr Hf. rewrite (stale_reply P s c hi h Hin Hr), Hf. reflexivity. Qed.

(* stability levels (C07) *)
(* the effect of a write does not depend on the stability level: unstable data is visible at once *)
Theorem write_effect_independent_of_stability P s h off cnt st1 st2 d hi :
  fst (step P s (CWrite h off cnt st1 d) hi) = fst (step P s (CWrite h off cnt st2 d) hi).
Proof.
  simpl. unfold do_write. destruct (resolve P s h) as [[i o]|]; [|reflexivity].
  destruct (negb _); [reflexivity|]. destruct (negb _); [reflexivity|]. destruct (_ <? _); [reflexivity|].
  destruct (_ <? _); [reflexivity|]. destruct hi; reflexivity.
Qed.

Definition stable_rank (s : stable) : N := match s with Unstable => 0 | DataSync => 1 | FileSync => 2 end.
(* the committed level reported is never weaker than the level requested *)
Theorem committed_not_weaker P s h off cnt st d hi n c a :
  snd (step P s (CWrite h off cnt st d) hi) = RWritten n c a -> stable_rank st <= stable_rank c.
Proof.
  simpl. destruct (write_cases P s h off cnt st d hi) as [(e & _ & ->)|(i & o & n' & _ & _ & _ & _ & _ & _ & ->)]; [discriminate|].
  intros [= _ <- _]. destruct (unstable_opt s), st; simpl; lia.
Qed.
(* with the unstable option off every write is reported FILE_SYNC *)
Theorem option_off_file_sync P s h off cnt st d hi n c a :
  unstable_opt s = false ->
  snd (step P s (CWrite h off cnt st d) hi) = RWritten n c a -> c = FileSync.
Proof.
  intros Hu. simpl. destruct (write_cases P s h off cnt st d hi) as [(e & _ & ->)|(i & o & n' & _ & _ & _ & _ & _ & _ & ->)]; [discriminate|].
  rewrite Hu. intros [= _ <- _]. reflexivity.
Qed.
