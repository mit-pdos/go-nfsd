(* mkfs: for every disk size that markAlloc accepts, the regions of the layout follow one another without any sum
   wrapping around, the inodes lie apart inside the inode region, and the block bitmap marks exactly the blocks
   outside the data region. *)
From Coq Require Import ZArith Lia Bool ZifyBool.
From V Require Import Gen.GenSuper Model.SuperModel.
Open Scope N_scope.

Lemma w64_small x : x < W -> w64 x = x.
Proof. intros. unfold w64. now apply N.mod_small. Qed.

Section Arith.
(* inside this section lia knows x / c and x mod c for numerals c; the setting ends with the section *)
Ltac Zify.zify_post_hook ::= Z.to_euclidean_division_equations.

Lemma NBB_val sz : sz < W -> NBlockBitmap (MkFsSuper sz) = sz / 32768 + 1.
Proof. intros H. apply w64_small. unfold W in *. lia. Qed.

Lemma Inum2Addr_val fs i : InodeStart fs + i / 32 < W ->
  Inum2Addr fs i = (InodeStart fs + i / 32, i mod 32 * 1024).
Proof.
  intros H. unfold Inum2Addr. rewrite (w64_small _ H), (w64_small (i mod 32 * 128)) by (unfold W; lia).
  rewrite w64_small by (unfold W; lia). f_equal. lia.
Qed.

(* under the acceptance hypothesis no sum wraps: the regions without w64 *)
Record simple_layout (sz:N) : Prop := {
  sl_bbs : BitmapBlockStart (MkFsSuper sz) = 513;
  sl_nbb : NBlockBitmap (MkFsSuper sz) = sz / 32768 + 1;
  sl_bis : BitmapInodeStart (MkFsSuper sz) = 514 + sz / 32768;
  sl_is  : InodeStart (MkFsSuper sz) = 515 + sz / 32768;
  sl_ds  : DataStart (MkFsSuper sz) = 1539 + sz / 32768;
  sl_ni  : NInode (MkFsSuper sz) = 32768;
  sl_lo  : 1539 + sz / 32768 <= sz;
  sl_hi  : sz / 32768 < 31229 }.

Lemma accepted_simple sz : accepted sz -> simple_layout sz.
Proof.
  intros [Hw H]. pose proof (NBB_val _ Hw) as Enbb. unfold W in Hw.
  assert (Ebis: BitmapInodeStart (MkFsSuper sz) = 514 + sz / 32768).
  { unfold BitmapInodeStart. rewrite Enbb. change (BitmapBlockStart _) with 513. rewrite w64_small; unfold W; lia. }
  assert (Eis: InodeStart (MkFsSuper sz) = 515 + sz / 32768).
  { unfold InodeStart. rewrite Ebis. change (NInodeBitmap _) with 1. rewrite w64_small; unfold W; lia. }
  assert (Eds: DataStart (MkFsSuper sz) = 1539 + sz / 32768).
  { unfold DataStart. rewrite Eis. change (nInodeBlk _) with 1024. rewrite w64_small; unfold W; lia. }
  unfold markAlloc_sane in H. rewrite negb_true_iff, !orb_false_iff, Eds in H. destruct H as [[H1 _] H3].
  change (MaxBnum _) with sz in H3. unfold NBITBLOCK in H1.
  constructor; [reflexivity|exact Enbb|exact Ebis|exact Eis|exact Eds|reflexivity|lia|lia].
Qed.

Theorem layout_regions sz : accepted sz ->
  let fs := MkFsSuper sz in
  BitmapBlockStart fs = LOGSIZE /\
  BitmapInodeStart fs = BitmapBlockStart fs + NBlockBitmap fs /\
  InodeStart fs = BitmapInodeStart fs + 1 /\
  DataStart fs = InodeStart fs + 1024 /\
  DataStart fs <= sz /\ NInode fs = 32768 /\
  sz < NBlockBitmap fs * NBITBLOCK /\ (NBlockBitmap fs - 1) * NBITBLOCK <= sz.
Proof.
  intros Ha. destruct (accepted_simple _ Ha) as [A B C D E F G H]. cbv zeta.
  rewrite A, B, C, D, E, F. unfold LOGSIZE, NBITBLOCK. lia.
Qed.

Theorem inode_addrs sz i j : accepted sz ->
  let fs := MkFsSuper sz in i < NInode fs -> j < NInode fs ->
  InodeStart fs <= fst (Inum2Addr fs i) < DataStart fs /\
  snd (Inum2Addr fs i) + 1024 <= NBITBLOCK /\
  (i <> j -> fst (Inum2Addr fs i) <> fst (Inum2Addr fs j) \/
             snd (Inum2Addr fs i) + 1024 <= snd (Inum2Addr fs j) \/ snd (Inum2Addr fs j) + 1024 <= snd (Inum2Addr fs i)).
Proof.
  intros Ha. destruct (accepted_simple _ Ha) as [_ _ _ D E F _ Hhi]. cbv zeta. rewrite F, E.
  intros Hi Hj. rewrite !Inum2Addr_val by (rewrite D; unfold W; lia).
  cbn [fst snd]. rewrite D. unfold NBITBLOCK. lia.
Qed.

(* [b < n] is decided inside the first bitmap block when n lies in it, [m <= b] inside the block that holds m
   when b does not lie beyond that block: the two tests mk_bit makes *)
Lemma ltb_first_block b n : n <= NBITBLOCK -> (b <? n) = (b / NBITBLOCK =? 0) && (b mod NBITBLOCK <? n).
Proof. unfold NBITBLOCK. lia. Qed.

Lemma leb_last_block m b : b < (m / NBITBLOCK + 1) * NBITBLOCK ->
  (m <=? b) = (b / NBITBLOCK =? m / NBITBLOCK) && (m mod NBITBLOCK <=? b mod NBITBLOCK).
Proof. unfold NBITBLOCK. lia. Qed.
End Arith.

Lemma mk_bit_exact fs b : DataStart fs <= NBITBLOCK -> b < (MaxBnum fs / NBITBLOCK + 1) * NBITBLOCK ->
  mk_bit fs b = (b <? DataStart fs) || (MaxBnum fs <=? b).
Proof.
  intros Hn Hb. unfold mk_bit. cbv zeta. rewrite (ltb_first_block b _ Hn), (leb_last_block _ b Hb).
  destruct (N.eqb_spec (MaxBnum fs / NBITBLOCK) 0) as [->|_]; [apply andb_orb_distrib_r|reflexivity].
Qed.

Theorem mkfs_bitmap_exact sz b : accepted sz ->
  let fs := MkFsSuper sz in b < NBlockBitmap fs * NBITBLOCK ->
  mk_bit fs b = (b <? DataStart fs) || (sz <=? b).
Proof.
  intros Ha. destruct (accepted_simple _ Ha) as [_ B _ _ E _ _ H]. cbv zeta. rewrite B. intros Hb.
  apply mk_bit_exact; [rewrite E; unfold NBITBLOCK; lia|exact Hb].
Qed.

Example accepted_10000 : accepted 10000.
Proof. split; [reflexivity| vm_compute; reflexivity]. Qed.
Example not_accepted_1538 : ~ accepted 1538.
Proof. intros [_ H]. vm_compute in H. discriminate. Qed.
Example accepted_1539 : accepted 1539.
Proof. split; [reflexivity| vm_compute; reflexivity]. Qed.
Print Assumptions mkfs_bitmap_exact.
