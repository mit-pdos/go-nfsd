(* WM — go-journal's write-ahead log (wal package) at the granularity of single disk writes: an asynchronous disk
   (durable contents + writes issued since the last barrier, any sub-list of which a crash may keep), the client
   appending transactions into the in-memory log with absorption, the logger writing log slots and the header, the
   installer copying logged blocks home and advancing the start.  Proved: the invariant Inv holds in every reachable
   state; every crash image recovers to a prefix of the appended transactions containing all the logger has
   acknowledged; a flushed transaction is in every later image; recovery re-establishes Inv. *)
From Coq Require Import List Arith Lia.
Import ListNotations.

Section Wal.
Variable L : nat.                 (* number of log slots (511) *)
Hypothesis Lpos : 0 < L.

Definition mp := nat -> nat.                       (* address -> block value *)
Definition mupd (m:mp) (a v:nat) : mp := fun x => if Nat.eqb x a then v else m x.
Definition upd := (nat * nat)%type.                (* (address, value) *)
Definition replay (l:list upd) (m:mp) : mp := fold_left (fun m u => mupd m (fst u) (snd u)) l m.
Definition txn := list upd.
Definition apply_txns (ts:list txn) (m:mp) : mp := fold_left (fun m t => replay t m) ts m.

Lemma replay_app a b m : replay (a ++ b) m = replay b (replay a m).
Proof. unfold replay. apply fold_left_app. Qed.
Lemma apply_txns_app a b m : apply_txns (a ++ b) m = apply_txns b (apply_txns a m).
Proof. unfold apply_txns. apply fold_left_app. Qed.

Definition meq (m m':mp) := forall x, m x = m' x.
Lemma meq_refl m : meq m m. Proof. intros x; reflexivity. Qed.
Lemma meq_trans a b c : meq a b -> meq b c -> meq a c. Proof. intros H1 H2 x. now rewrite H1. Qed.
Lemma meq_sym a b : meq a b -> meq b a. Proof. intros H x. now rewrite H. Qed.

Lemma mupd_eq m a v : mupd m a v a = v.
Proof. unfold mupd. now rewrite Nat.eqb_refl. Qed.
Lemma mupd_neq m a v x : x <> a -> mupd m a v x = m x.
Proof. intros H. unfold mupd. now rewrite (proj2 (Nat.eqb_neq x a) H). Qed.
Lemma mupd_shadow m a v w : meq (mupd (mupd m a v) a w) (mupd m a w).
Proof. intros x. unfold mupd. destruct (Nat.eqb x a); reflexivity. Qed.

Lemma replay_cons u l m : replay (u :: l) m = replay l (mupd m (fst u) (snd u)).
Proof. reflexivity. Qed.
Lemma replay_snoc l u m : replay (l ++ [u]) m = mupd (replay l m) (fst u) (snd u).
Proof. rewrite replay_app. reflexivity. Qed.

Lemma replay_notin l : forall m x, ~ In x (map fst l) -> replay l m x = m x.
Proof.
  induction l as [|[a v] l IH]; intros m x H; simpl; [reflexivity|].
  rewrite IH by (intros C; apply H; now right). unfold mupd.
  destruct (Nat.eqb_spec x a) as [->|]; [exfalso; apply H; now left|reflexivity].
Qed.

(* the value at x after replaying l depends on the value before only if l does not write x *)
Lemma replay_cover l x : forall m m', (~ In x (map fst l) -> m x = m' x) -> replay l m x = replay l m' x.
Proof.
  induction l as [|[a v] l IH]; intros m m' H; simpl.
  - apply H. intros [].
  - apply IH. intros Hx. unfold mupd. destruct (Nat.eqb_spec x a); [reflexivity|].
    apply H. simpl. intros [C|C]; [congruence|contradiction].
Qed.

Lemma replay_ext l m m' : meq m m' -> meq (replay l m) (replay l m').
Proof. intros H x. apply replay_cover. intros _. apply H. Qed.

(* the persistent disk *)
Record dsk := { hend : nat; haddr : nat -> nat; hstart : nat; slot : nat -> nat; home : mp }.
Inductive wr := WSlot (i v:nat) | WH1 (e:nat) (ad:nat -> nat) | WH2 (s:nat) | WHome (a v:nat).
Definition apply_wr (c:dsk) (w:wr) : dsk :=
  match w with
  | WSlot i v => {| hend := hend c; haddr := haddr c; hstart := hstart c; slot := mupd (slot c) i v; home := home c |}
  | WH1 e ad  => {| hend := e; haddr := ad; hstart := hstart c; slot := slot c; home := home c |}
  | WH2 s     => {| hend := hend c; haddr := haddr c; hstart := s; slot := slot c; home := home c |}
  | WHome a v => {| hend := hend c; haddr := haddr c; hstart := hstart c; slot := slot c; home := mupd (home c) a v |}
  end.
Definition apply_wrs (c:dsk) (ws:list wr) : dsk := fold_left apply_wr ws c.

Inductive sublist {A} : list A -> list A -> Prop :=
| sl_nil : sublist [] []
| sl_skip x l l' : sublist l l' -> sublist l (x :: l')
| sl_take x l l' : sublist l l' -> sublist (x :: l) (x :: l').

(* crash images: the durable disk plus any subset of the un-barriered writes, in order *)
Definition crash_img (dur:dsk) (pend:list wr) (c:dsk) : Prop := exists ws, sublist ws pend /\ c = apply_wrs dur ws.

Lemma apply_wrs_snoc d p w : apply_wrs d (p ++ [w]) = apply_wr (apply_wrs d p) w.
Proof. unfold apply_wrs. rewrite fold_left_app. reflexivity. Qed.

Lemma sublist_snoc {A} (ws:list A) pend w : sublist ws (pend ++ [w]) ->
  sublist ws pend \/ exists ws', ws = ws' ++ [w] /\ sublist ws' pend.
Proof.
  revert ws. induction pend as [|p pend IH]; intros ws H; simpl in H.
  - inversion H as [| ? ? ? H1 | ? ? ? H1]; subst; inversion H1; subst.
    + left. constructor.
    + right. exists []. split; [reflexivity|constructor].
  - inversion H as [| ? ? ? H1 | ? ? ? H1]; subst.
    + destruct (IH _ H1) as [Q|(ws' & -> & Q)]; [left; now constructor|right; exists ws'; split; [reflexivity|now constructor]].
    + destruct (IH _ H1) as [Q|(ws' & -> & Q)]; [left; now constructor|right; exists (p :: ws'); split; [reflexivity|now constructor]].
Qed.

Lemma crash_img_snoc dur pend w c : crash_img dur (pend ++ [w]) c ->
  crash_img dur pend c \/ exists c0, crash_img dur pend c0 /\ c = apply_wr c0 w.
Proof.
  intros (ws & Hs & ->). destruct (sublist_snoc _ _ _ Hs) as [Q|(ws' & -> & Q)].
  - left. exists ws. auto.
  - right. exists (apply_wrs dur ws'). split; [exists ws'; auto|]. apply apply_wrs_snoc.
Qed.

(* The two ways a transition changes the set of crash images.  Issuing w: an image is an old one, with or
   without w.  A barrier: the only image left is the disk with every pending write applied. *)
Lemma crash_issue (P:dsk -> Prop) dur pend w :
  (forall c, crash_img dur pend c -> P c /\ P (apply_wr c w)) -> forall c, crash_img dur (pend ++ [w]) c -> P c.
Proof. intros H c' [Hc|(c & Hc & ->)]%crash_img_snoc; now apply H. Qed.

Lemma crash_nil d c : crash_img d [] c -> c = d.
Proof. intros (ws & Hs & ->). inversion Hs; subst. reflexivity. Qed.

Lemma sublist_refl {A} (l:list A) : sublist l l.
Proof. induction l; [constructor|now apply sl_take]. Qed.

Lemma crash_img_all dur pend : crash_img dur pend (apply_wrs dur pend).
Proof. exists pend. split; [apply sublist_refl|reflexivity]. Qed.

Lemma crash_img_barrier dur pend c : crash_img (apply_wrs dur pend) [] c -> crash_img dur pend c.
Proof. intros ->%crash_nil. apply crash_img_all. Qed.

(* volatile state of the WAL and its ghost variables; lpc / ipc: where the logger / the installer stands in its
   round (writing position k towards e, first barrier passed, header issued) *)
Inductive lpc := LIdle | LWriting (e k:nat) | LBar1 (e:nat) | LHdr (e:nat).
Inductive ipc := IIdle | IWriting (e k:nat) | IBar1 (e:nat) | IHdr (e:nat).

Record st := {
  dur : dsk; pend : list wr;
  flog : list upd;              (* ghost: whole log since time 0; log position = index *)
  mstart : nat; diskEnd : nat; mutabl : nat;
  amem : nat -> nat;            (* in-memory copy of the slot addresses *)
  lp : lpc; ip : ipc;
  txns : list txn;              (* ghost: every transaction appended so far *)
  bnd : list (nat * nat)        (* ghost: (log position, number of transactions) boundaries *)
}.

Definition pos (fl:list upd) (p:nat) : upd := nth p fl (0,0).
Definition seg (fl:list upd) (a b:nat) : list upd := firstn (b - a) (skipn a fl).   (* positions [a,b) *)

(* absorption into the mutable tail *)
Fixpoint absorb (m:list upd) (a v:nat) : option (list upd) :=
  match m with
  | [] => None
  | (a',v') :: r => if Nat.eqb a' a then Some ((a,v) :: r)
                   else match absorb r a v with Some r' => Some ((a',v') :: r') | None => None end
  end.
Definition memwrite1 (m:list upd) (u:upd) : list upd :=
  match absorb m (fst u) (snd u) with Some m' => m' | None => m ++ [u] end.
Definition memwrite (m:list upd) (t:txn) : list upd := fold_left memwrite1 t m.

Definition addrs (l:list upd) : list nat := map fst l.

Lemma replay_mupd_notin l m a v : ~ In a (addrs l) -> meq (replay l (mupd m a v)) (mupd (replay l m) a v).
Proof.
  intros H x. destruct (Nat.eq_dec x a) as [->|N].
  - rewrite replay_notin, !mupd_eq by exact H. reflexivity.
  - rewrite (mupd_neq (replay l m)) by exact N. apply replay_cover. intros _. now apply mupd_neq.
Qed.

Lemma absorb_none m a v : absorb m a v = None -> ~ In a (addrs m).
Proof.
  induction m as [|[a' v'] m IH]; simpl; [auto|]. destruct (Nat.eqb_spec a' a); [discriminate|].
  destruct (absorb m a v); [discriminate|]. intros _ [C|C]; [simpl in C; congruence|now apply IH].
Qed.

Lemma absorb_some m a v : forall m', absorb m a v = Some m' ->
  addrs m' = addrs m /\ length m' = length m /\
  (NoDup (addrs m) -> forall x, meq (replay m' x) (replay (m ++ [(a,v)]) x)).
Proof.
  induction m as [|[a' v'] m IH]; intros m' H; simpl in H; [discriminate|].
  destruct (Nat.eqb_spec a' a) as [->|N].
  - injection H as <-. split; [reflexivity|]. split; [reflexivity|]. intros [Hn _]%NoDup_cons_iff x.
    (* the new value shadows the old one, which can be moved to the end of m since m does not mention a *)
    rewrite replay_snoc, !replay_cons. eapply meq_trans; [|apply replay_mupd_notin, Hn].
    apply replay_ext, meq_sym, mupd_shadow.
  - destruct (absorb m a v) as [r'|] eqn:E; [|discriminate]. injection H as <-.
    destruct (IH _ eq_refl) as (A & B & C). split; [simpl; now rewrite A|]. split; [simpl; now rewrite B|].
    intros [_ ND]%NoDup_cons_iff x. apply C, ND.
Qed.

Lemma memwrite1_length m u : length m <= length (memwrite1 m u) /\ 0 < length (memwrite1 m u).
Proof.
  unfold memwrite1. destruct (absorb m (fst u) (snd u)) as [m'|] eqn:E.
  - destruct (absorb_some _ _ _ _ E) as (_ & -> & _). destruct m; [discriminate|simpl; lia].
  - rewrite app_length. simpl. lia.
Qed.

Lemma memwrite_length t : forall m, length m <= length (memwrite m t) /\ (t <> [] -> 0 < length (memwrite m t)).
Proof.
  induction t as [|u t IH]; intros m; simpl; [split; [lia|congruence]|].
  destruct (memwrite1_length m u), (IH (memwrite1 m u)). split; [|intros _]; lia.
Qed.

Lemma memwrite1_spec m u : NoDup (addrs m) ->
  NoDup (addrs (memwrite1 m u)) /\ forall x, meq (replay (memwrite1 m u) x) (replay (m ++ [u]) x).
Proof.
  intros ND. unfold memwrite1. destruct u as [a v]. simpl. destruct (absorb m a v) as [m'|] eqn:E.
  - destruct (absorb_some _ _ _ _ E) as (A & _ & C). rewrite A. split; [exact ND|apply C, ND].
  - apply absorb_none in E. split; [|intros; apply meq_refl].
    unfold addrs. rewrite map_app. apply (NoDup_Add (Add_app _ _ [])). now rewrite app_nil_r.
Qed.

Lemma memwrite_spec t : forall m, NoDup (addrs m) ->
  NoDup (addrs (memwrite m t)) /\ forall x, meq (replay (memwrite m t) x) (replay (m ++ t) x).
Proof.
  induction t as [|u t IH]; intros m ND; simpl.
  - split; [exact ND|]. intros x. rewrite app_nil_r. apply meq_refl.
  - destruct (memwrite1_spec m u ND) as (A & C). destruct (IH _ A) as (A' & C').
    split; [exact A'|]. intros x. eapply meq_trans; [apply C'|].
    rewrite !replay_app, replay_cons, <- replay_snoc. apply replay_ext, C.
Qed.

Variable base0 : mp.     (* contents of the home region at time 0 *)

Definition barrier (s:st) : st :=
  {| dur := apply_wrs (dur s) (pend s); pend := []; flog := flog s; mstart := mstart s; diskEnd := diskEnd s;
     mutabl := mutabl s; amem := amem s; lp := lp s; ip := ip s; txns := txns s; bnd := bnd s |}.
Definition issue (s:st) (w:wr) : st :=
  {| dur := dur s; pend := pend s ++ [w]; flog := flog s; mstart := mstart s; diskEnd := diskEnd s;
     mutabl := mutabl s; amem := amem s; lp := lp s; ip := ip s; txns := txns s; bnd := bnd s |}.
Definition set_lp (s:st) (l:lpc) : st :=
  {| dur := dur s; pend := pend s; flog := flog s; mstart := mstart s; diskEnd := diskEnd s;
     mutabl := mutabl s; amem := amem s; lp := l; ip := ip s; txns := txns s; bnd := bnd s |}.
Definition set_ip (s:st) (i:ipc) : st :=
  {| dur := dur s; pend := pend s; flog := flog s; mstart := mstart s; diskEnd := diskEnd s;
     mutabl := mutabl s; amem := amem s; lp := lp s; ip := i; txns := txns s; bnd := bnd s |}.

Inductive step : st -> st -> Prop :=
| s_append s t :
    step s {| dur := dur s; pend := pend s;
              flog := firstn (mutabl s) (flog s) ++ memwrite (skipn (mutabl s) (flog s)) t;
              mstart := mstart s; diskEnd := diskEnd s; mutabl := mutabl s; amem := amem s; lp := lp s; ip := ip s;
              txns := txns s ++ [t]; bnd := bnd s |}
| s_mark s :                                   (* flushIfNeeded: close the current group *)
    step s {| dur := dur s; pend := pend s; flog := flog s; mstart := mstart s; diskEnd := diskEnd s;
              mutabl := length (flog s); amem := amem s; lp := lp s; ip := ip s; txns := txns s;
              bnd := bnd s ++ [(length (flog s), length (txns s))] |}
| l_begin s : lp s = LIdle -> diskEnd s < mutabl s -> mutabl s - mstart s <= L ->
    step s (set_lp s (LWriting (mutabl s) (diskEnd s)))
| l_write s e k : lp s = LWriting e k -> k < e ->
    step s {| dur := dur s; pend := pend s ++ [WSlot (k mod L) (snd (pos (flog s) k))];
              flog := flog s; mstart := mstart s; diskEnd := diskEnd s; mutabl := mutabl s;
              amem := mupd (amem s) (k mod L) (fst (pos (flog s) k));
              lp := LWriting e (S k); ip := ip s; txns := txns s; bnd := bnd s |}
| l_bar1 s e : lp s = LWriting e e -> step s (set_lp (barrier s) (LBar1 e))
| l_hdr s e : lp s = LBar1 e -> step s (set_lp (issue s (WH1 e (amem s))) (LHdr e))
| l_bar2 s e : lp s = LHdr e ->
    step s {| dur := apply_wrs (dur s) (pend s); pend := []; flog := flog s; mstart := mstart s; diskEnd := e;
              mutabl := mutabl s; amem := amem s; lp := LIdle; ip := ip s; txns := txns s; bnd := bnd s |}
| i_begin s : ip s = IIdle -> mstart s < diskEnd s -> step s (set_ip s (IWriting (diskEnd s) (mstart s)))
| i_write s e k : ip s = IWriting e k -> k < e ->
    step s (set_ip (issue s (WHome (fst (pos (flog s) k)) (snd (pos (flog s) k)))) (IWriting e (S k)))
| i_bar1 s e : ip s = IWriting e e -> step s (set_ip (barrier s) (IBar1 e))
| i_hdr s e : ip s = IBar1 e -> step s (set_ip (issue s (WH2 e)) (IHdr e))
| i_bar2 s e : ip s = IHdr e ->
    step s {| dur := apply_wrs (dur s) (pend s); pend := []; flog := flog s; mstart := e; diskEnd := diskEnd s;
              mutabl := mutabl s; amem := amem s; lp := lp s; ip := IIdle; txns := txns s; bnd := bnd s |}.

Definition init : st :=
  {| dur := {| hend := 0; haddr := fun _ => 0; hstart := 0; slot := fun _ => 0; home := base0 |};
     pend := []; flog := []; mstart := 0; diskEnd := 0; mutabl := 0; amem := fun _ => 0;
     lp := LIdle; ip := IIdle; txns := []; bnd := [(0,0)] |}.

(* what recovery computes from a crashed disk (recoverCircular + overlay on the home blocks) *)
Definition recovered_log (c:dsk) : list upd :=
  map (fun p => (haddr c (p mod L), slot c (p mod L))) (seq (hstart c) (hend c - hstart c)).
Definition recover (c:dsk) : mp := replay (recovered_log c) (home c).

Lemma mod_window m p q : m <= p -> p < q -> q < m + L -> p mod L <> q mod L.
Proof.
  intros H1 H2 H3 E.
  pose proof (Nat.div_mod p L ltac:(lia)). pose proof (Nat.div_mod q L ltac:(lia)).
  pose proof (Nat.mod_upper_bound p L ltac:(lia)).
  assert (q / L <= p / L \/ q / L >= S (p / L)) as [C|C] by lia; nia.
Qed.

Lemma mupd_window f m p k v : m <= p -> p < k -> k < m + L -> mupd f (k mod L) v (p mod L) = f (p mod L).
Proof. intros H1 H2 H3. apply mupd_neq. now apply (mod_window m). Qed.

(* writing the value of position k into its slot extends the agreement of the circular buffer f with g
   from [m,k) to [m,k] *)
Lemma mupd_slot (f g:nat -> nat) m k : k < m + L -> (forall p, m <= p -> p < k -> f (p mod L) = g p) ->
  forall p, m <= p -> p < S k -> mupd f (k mod L) (g k) (p mod L) = g p.
Proof.
  intros Hk H p H1 H2. destruct (Nat.eq_dec p k) as [->|Np].
  - apply mupd_eq.
  - rewrite (mupd_window _ m) by lia. apply H; lia.
Qed.

Lemma seg_skipn_firstn fl a b : seg fl a b = skipn a (firstn b fl).
Proof. symmetry. apply skipn_firstn_comm. Qed.

Lemma firstn_seg fl a b : a <= b -> firstn b fl = firstn a fl ++ seg fl a b.
Proof.
  intros H. rewrite seg_skipn_firstn, <- (firstn_skipn a (firstn b fl)) at 1. now rewrite firstn_firstn, Nat.min_l.
Qed.

Lemma seg_mono_in fl x b b' a : b <= b' -> In a (addrs (seg fl x b)) -> In a (addrs (seg fl x b')).
Proof.
  intros H. rewrite !seg_skipn_firstn, (firstn_seg fl b b' H), skipn_app. unfold addrs. rewrite map_app, in_app_iff. now left.
Qed.

Lemma pos_firstn fl n p : p < n -> pos (firstn n fl) p = pos fl p.
Proof.
  unfold pos. revert n p. induction fl as [|u fl IH]; intros [|n] [|p] H; simpl; try lia; auto. apply IH. lia.
Qed.

Lemma seg_firstn fl n a b : b <= n -> seg (firstn n fl) a b = seg fl a b.
Proof. intros H. rewrite !seg_skipn_firstn, firstn_firstn. now rewrite Nat.min_l. Qed.

Lemma agree_firstn {A} (fl fl':list A) n p : firstn n fl' = firstn n fl -> p <= n -> firstn p fl' = firstn p fl.
Proof. intros E H. rewrite <- (Nat.min_l p n H), <- !firstn_firstn. now f_equal. Qed.
Lemma agree_pos fl fl' n p : firstn n fl' = firstn n fl -> p < n -> pos fl' p = pos fl p.
Proof. intros E H. rewrite <- (pos_firstn fl' n p H), E. now apply pos_firstn. Qed.
Lemma agree_seg fl fl' n a b : firstn n fl' = firstn n fl -> b <= n -> seg fl' a b = seg fl a b.
Proof. intros E H. rewrite <- (seg_firstn fl' n a b H), E. now apply seg_firstn. Qed.

Lemma skipn_pos fl : forall a, a < length fl -> skipn a fl = pos fl a :: skipn (S a) fl.
Proof. induction fl as [|u fl IH]; intros [|a] H; simpl in *; try lia; [reflexivity|apply IH; lia]. Qed.

Lemma seg_cons fl k b : k < b -> b <= length fl -> seg fl k b = pos fl k :: seg fl (S k) b.
Proof. intros H1 H2. unfold seg. rewrite skipn_pos by lia. replace (b - k) with (S (b - S k)) by lia. reflexivity. Qed.

Lemma seg_map fl a b : b <= length fl -> seg fl a b = map (pos fl) (seq a (b - a)).
Proof.
  intros Hb. remember (b - a) as n eqn:En. revert a En. induction n as [|n IH]; intros a En.
  - unfold seg. now rewrite <- En.
  - rewrite seg_cons by lia. simpl. f_equal. apply IH. lia.
Qed.

Lemma in_seg_pos fl x b p : x <= p -> p < b -> b <= length fl -> In (fst (pos fl p)) (addrs (seg fl x b)).
Proof.
  intros H1 H2 H3. rewrite seg_map by exact H3. unfold addrs. rewrite map_map. apply in_map_iff.
  exists p. split; [reflexivity|]. apply in_seq. lia.
Qed.

Lemma firstn_S_pos fl k : k < length fl -> firstn (S k) fl = firstn k fl ++ [pos fl k].
Proof.
  intros H. rewrite (firstn_seg fl k (S k)), (seg_cons fl k (S k)) by lia. unfold seg. now rewrite Nat.sub_diag.
Qed.

(* The invariant has three parts: [vinv] speaks of the volatile state and the ghost log alone, [good s c] of one
   crash image c, [finv] of the disk with every pending write applied ([full s]), which the next barrier makes
   durable.  [written], [lend], [dwritten] are the positions up to which the logger has issued slot writes, is
   going to write, and has made the slots durable; [iend] is the position up to which the installer's home
   writes are durable. *)
Definition written (s:st) := match lp s with LIdle => diskEnd s | LWriting _ k => k | LBar1 e => e | LHdr e => e end.
Definition lend (s:st) := match lp s with LIdle => diskEnd s | LWriting e _ => e | LBar1 e => e | LHdr e => e end.
Definition dwritten (s:st) := match lp s with LBar1 e => e | LHdr e => e | _ => diskEnd s end.
Definition iend (s:st) : option nat := match ip s with IBar1 e => Some e | IHdr e => Some e | _ => None end.

Record vinv (s:st) : Prop := {
  v_ord : mstart s <= diskEnd s /\ diskEnd s <= mutabl s /\ mutabl s <= length (flog s);
  v_lp : diskEnd s <= written s /\ written s <= lend s /\ lend s <= mutabl s /\ lend s <= mstart s + L;
  v_ip : match ip s with IIdle => True | IWriting e k => mstart s <= k /\ k <= e /\ e <= diskEnd s
                       | IBar1 e => mstart s <= e /\ e <= diskEnd s | IHdr e => mstart s <= e /\ e <= diskEnd s end;
  v_amem : forall p, mstart s <= p -> p < written s -> amem s (p mod L) = fst (pos (flog s) p);
  v_bnd : forall p k, In (p,k) (bnd s) ->
            p <= mutabl s /\ k <= length (txns s) /\
            meq (replay (firstn p (flog s)) base0) (apply_txns (firstn k (txns s)) base0);
  v_bpos : (exists k, In (diskEnd s, k) (bnd s)) /\ (exists k, In (mutabl s, k) (bnd s)) /\ (exists k, In (lend s, k) (bnd s));
  v_end : meq (replay (flog s) base0) (apply_txns (txns s) base0);
  v_nd : NoDup (addrs (skipn (mutabl s) (flog s)))
}.

Record good (s:st) (c:dsk) : Prop := {
  g_hend : hend c = diskEnd s \/ lp s = LHdr (hend c);
  g_hstart : hstart c = mstart s \/ ip s = IHdr (hstart c);
  g_slot : forall p, hstart c <= p -> p < hend c ->
             slot c (p mod L) = snd (pos (flog s) p) /\ haddr c (p mod L) = fst (pos (flog s) p);
  g_dslot : forall p, diskEnd s <= p -> p < dwritten s -> slot c (p mod L) = snd (pos (flog s) p);
  g_home : forall a, home c a = replay (firstn (hstart c) (flog s)) base0 a \/
                     In a (addrs (seg (flog s) (hstart c) (diskEnd s)));
  g_dhome : forall e, iend s = Some e -> forall a,
              home c a = replay (firstn e (flog s)) base0 a \/ In a (addrs (seg (flog s) e (diskEnd s)))
}.

Definition full (s:st) : dsk := apply_wrs (dur s) (pend s).

Record finv (s:st) : Prop := {
  f_home : forall e k, ip s = IWriting e k -> forall a,
             home (full s) a = replay (firstn k (flog s)) base0 a \/ In a (addrs (seg (flog s) k (diskEnd s)));
  f_slot : forall e k, lp s = LWriting e k -> forall p, diskEnd s <= p -> p < k ->
             slot (full s) (p mod L) = snd (pos (flog s) p);
  f_hstart : forall e, ip s = IHdr e -> hstart (full s) = e;
  f_hend : forall e, lp s = LHdr e -> hend (full s) = e
}.

Definition Inv (s:st) : Prop :=
  vinv s /\ (forall c, crash_img (dur s) (pend s) c -> good s c) /\ finv s.

(* finv reads dur and pend through [full s] only; after issuing w in s0 that is [apply_wr (full s0) w], by
   apply_wrs_snoc, and then most of its fields are those of [full s0] *)
Lemma finv_intro s d : full s = d ->
  (forall e k, ip s = IWriting e k -> forall a,
     home d a = replay (firstn k (flog s)) base0 a \/ In a (addrs (seg (flog s) k (diskEnd s)))) ->
  (forall e k, lp s = LWriting e k -> forall p, diskEnd s <= p -> p < k -> slot d (p mod L) = snd (pos (flog s) p)) ->
  (forall e, ip s = IHdr e -> hstart d = e) -> (forall e, lp s = LHdr e -> hend d = e) -> finv s.
Proof. intros <-. apply Build_finv. Qed.

(* A transition changes few fields, so most clauses of the invariant of the new state are, up to conversion,
   clauses of the old state, and inv_step passes them to the constructors by name ([_] marks a clause that is
   proved anew).  For this the state and the image of the record being built must come from the goal, before
   the clauses are looked at; otherwise they would be inferred from the first clause passed. *)
Arguments Build_vinv s & _ _ _ _ _ _ _ _.
Arguments Build_good s c & _ _ _ _ _ _.
Arguments finv_intro s & d _ _ _ _ _.

Lemma inv_init : Inv init.
Proof.
  split; [|split].
  - constructor; unfold written, lend; simpl.
    + lia.
    + lia.
    + exact I.
    + intros p H1 H2. lia.
    + intros p k [[= <- <-]|[]]. split; [lia|]. split; [lia|]. apply meq_refl.
    + split; [|split]; exists 0; now left.
    + apply meq_refl.
    + constructor.
  - intros c ->%crash_nil. constructor; unfold dwritten, iend; simpl.
    + now left.
    + now left.
    + intros; lia.
    + intros; lia.
    + intros a. now left.
    + intros e [=].
  - constructor; simpl; intros; discriminate.
Qed.

Lemma good_bounds s c : vinv s -> good s c ->
  mstart s <= hstart c /\ hstart c <= diskEnd s /\ diskEnd s <= hend c /\ hend c <= lend s /\ lend s <= mutabl s.
Proof.
  intros [Vo Vl Vi _ _ _ _ _] [Ge Gs _ _ _ _]. unfold lend, written in *.
  assert (mstart s <= hstart c /\ hstart c <= diskEnd s) by (destruct Gs as [->|E]; [lia|rewrite E in Vi; lia]).
  destruct Ge as [->|E]; [destruct (lp s); lia|rewrite E in *; lia].
Qed.

Theorem inv_step s s' : Inv s -> step s s' -> Inv s'.
Proof.
  intros (V & G & [Fh Fs Fhs Fhe]) Hs. pose proof V as [Vo Vl Vi Va Vb Vp Ve Vn].
  pose proof (G (full s) (crash_img_all _ _)) as GF.
  destruct Hs as [s t|s|s Hlp H1 H2|s e k Hlp Hk|s e Hlp|s e Hlp|s e Hlp|s Hip H1|s e k Hip Hk|s e Hip|s e Hip|s e Hip].
  - (* s_append: the log keeps its first [mutabl s] positions, and no clause reads it above them *)
    destruct (memwrite_spec t _ Vn) as (MN & MR). destruct (memwrite_length t (skipn (mutabl s) (flog s))) as [ML _].
    rewrite skipn_length in ML.
    set (M' := memwrite (skipn (mutabl s) (flog s)) t) in *. set (fl' := firstn (mutabl s) (flog s) ++ M').
    assert (Hlen : length (firstn (mutabl s) (flog s)) = mutabl s) by (rewrite firstn_length; lia).
    assert (E : firstn (mutabl s) fl' = firstn (mutabl s) (flog s)).
    { unfold fl'. rewrite firstn_app, Hlen, Nat.sub_diag, firstn_firstn, Nat.min_id. apply app_nil_r. }
    pose proof (fun p => agree_firstn _ _ _ p E) as FS. pose proof (fun p => agree_pos _ _ _ p E) as PS.
    pose proof (fun a b => agree_seg _ _ _ a b E) as SS.
    split; [|split].
    + refine (Build_vinv _ _ Vl Vi _ _ Vp _ _); unfold written, lend in *; simpl.
      * unfold fl'. rewrite app_length, Hlen. lia.
      * intros p Hp1 Hp2. rewrite PS by lia. apply Va; lia.
      * intros p k Hin. destruct (Vb p k Hin) as (A & B & C). split; [exact A|]. split; [rewrite app_length; lia|].
        rewrite FS by exact A. rewrite firstn_app. replace (k - length (txns s)) with 0 by lia.
        simpl. rewrite app_nil_r. exact C.
      * unfold fl'. rewrite replay_app, apply_txns_app. simpl. eapply meq_trans; [apply MR|]. rewrite replay_app.
        rewrite <- (replay_app (firstn (mutabl s) (flog s))), firstn_skipn. apply replay_ext, Ve.
      * unfold fl'. rewrite skipn_app, Hlen, Nat.sub_diag, skipn_all2 by lia. exact MN.
    + intros c Hc. pose proof (good_bounds s c V (G c Hc)) as B. destruct (G c Hc) as [Ge Gs Gl Gd Gh Gdh].
      refine (Build_good _ _ Ge Gs _ _ _ _); unfold dwritten, iend, lend in *; simpl.
      * intros p Hp1 Hp2. rewrite PS by lia. now apply Gl.
      * intros p Hp1 Hp2. rewrite PS; [now apply Gd|]. destruct (lp s); lia.
      * intros a. rewrite FS, SS by lia. apply Gh.
      * intros e He a. assert (e <= diskEnd s) by (destruct (ip s); try discriminate; injection He as <-; lia).
        rewrite FS, SS by lia. now apply Gdh.
    + refine (finv_intro _ _ eq_refl _ _ Fhs Fhe); simpl.
      * intros e k Hip a. rewrite Hip in Vi. rewrite FS, SS by lia. now apply (Fh e k).
      * intros e k Hlp p Hp1 Hp2. unfold written, lend in Vl. rewrite Hlp in Vl. rewrite PS by lia. now apply (Fs e k).
  - (* s_mark: the new boundary holds by v_end *)
    split; [|split].
    + refine (Build_vinv _ _ _ Vi Va _ _ Ve _); unfold written, lend in *; simpl; [lia|lia| | |].
      * intros p k [Hin|[[= <- <-]|[]]]%in_app_or.
        -- destruct (Vb p k Hin) as (A & B). split; [lia|exact B].
        -- rewrite !firstn_all. auto.
      * destruct Vp as ((k1 & A) & _ & (k3 & C)).
        split; [|split]; [exists k1|exists (length (txns s))|exists k3]; rewrite in_app_iff; simpl; auto.
      * rewrite skipn_all. constructor.
    + intros c Hc. destruct (G c Hc). now constructor.
    + now constructor.
  - (* l_begin: nothing of the round is written yet; its end, mutabl s, is a boundary by v_bpos *)
    unfold written, lend in *. rewrite Hlp in *. split; [|split].
    + refine (Build_vinv _ Vo _ Vi Va Vb _ Ve Vn); unfold written, lend; simpl; [lia|].
      destruct Vp as (A & B & _). auto.
    + intros c Hc. destruct (G c Hc) as [Ge Gs Gl Gd Gh Gdh]. rewrite Hlp in Ge. destruct Ge as [Ge|[=]].
      refine (Build_good _ _ (or_introl Ge) Gs Gl _ Gh Gdh). unfold dwritten. simpl. intros; lia.
    + refine (finv_intro _ _ eq_refl Fh _ Fhs _); simpl; [intros e k [= <- <-] p; lia|intros e [=]].
  - (* l_write: position k goes to slot k mod L, which holds none of the positions [mstart s, k), as k < mstart s + L *)
    unfold written, lend in *. rewrite Hlp in *. split; [|split].
    + refine (Build_vinv _ Vo _ Vi _ Vb Vp Ve Vn); unfold written, lend; simpl; [lia|].
      apply (mupd_slot _ (fun p => fst (pos (flog s) p))); [lia|exact Va].
    + apply crash_issue. intros c Hc. pose proof (good_bounds s c V (G c Hc)) as B.
      destruct (G c Hc) as [Ge Gs Gl Gd Gh Gdh]. unfold lend, dwritten in *. rewrite Hlp in *.
      destruct Ge as [Ge|[=]]. split.
      * exact (Build_good _ _ (or_introl Ge) Gs Gl Gd Gh Gdh).
      * refine (Build_good _ _ (or_introl Ge) Gs _ _ Gh Gdh); unfold dwritten; simpl; [|intros; lia].
        intros p Hp1 Hp2. rewrite (mupd_window _ (mstart s)) by lia. now apply Gl.
    + refine (finv_intro _ _ (apply_wrs_snoc _ _ _) Fh _ Fhs _); simpl; [|intros e' [=]].
      intros e' k' [= <- <-]. apply (mupd_slot _ (fun p => snd (pos (flog s) p))); [lia|exact (Fs e k eq_refl)].
  - (* l_bar1: the slots written since l_begin are durable *)
    destruct GF as [Ge Gs Gl Gd Gh Gdh]. unfold written, lend in *. rewrite Hlp in *. destruct Ge as [Ge|[=]].
    split; [now constructor|split].
    + intros c ->%crash_nil. refine (Build_good _ _ (or_introl Ge) Gs Gl _ Gh Gdh). exact (Fs e e eq_refl).
    + refine (finv_intro _ _ eq_refl Fh _ Fhs _); [intros e' k' [=]|intros e' [=]].
  - (* l_hdr: an image with the new header reads the slots of [hend, e) too *)
    unfold written, lend in *. rewrite Hlp in *. split; [now constructor|split].
    + apply crash_issue. intros c Hc. pose proof (good_bounds s c V (G c Hc)) as B.
      destruct (G c Hc) as [Ge Gs Gl Gd Gh Gdh]. unfold lend, dwritten in *. rewrite Hlp in *.
      destruct Ge as [Ge|[=]]. split.
      * exact (Build_good _ _ (or_introl Ge) Gs Gl Gd Gh Gdh).
      * refine (Build_good _ _ (or_intror eq_refl) Gs _ Gd Gh Gdh). simpl. intros p Hp1 Hp2. split; [|apply Va; lia].
        destruct (le_lt_dec (diskEnd s) p); [apply Gd|apply Gl]; lia.
    + refine (finv_intro _ _ (apply_wrs_snoc _ _ _) Fh _ Fhs _); simpl; [intros e' k' [=]|now intros e' [= <-]].
  - (* l_bar2: diskEnd advances to e, so the segments of addresses still to be installed grow *)
    destruct GF as [Ge Gs Gl Gd Gh Gdh]. unfold written, lend in *. rewrite Hlp in *.
    assert (Hseg : forall x a, In a (addrs (seg (flog s) x (diskEnd s))) -> In a (addrs (seg (flog s) x e)))
      by (intros x a; apply seg_mono_in; lia).
    split; [|split].
    + refine (Build_vinv _ _ _ _ Va Vb _ Ve Vn); unfold written, lend; simpl; [lia|lia| |].
      * destruct (ip s); try exact I; lia.
      * destruct Vp as (_ & B & C). auto.
    + intros c ->%crash_nil.
      refine (Build_good _ _ (or_introl (Fhe e eq_refl)) Gs Gl _ _ _); unfold dwritten; simpl.
      * intros; lia.
      * intros a. destruct (Gh a); auto.
      * intros e' He' a. destruct (Gdh e' He' a); auto.
    + refine (finv_intro _ _ eq_refl _ _ Fhs _); simpl; [|intros e' k' [=]|intros e' [=]].
      intros e' k' Hip a. destruct (Fh e' k' Hip a); auto.
  - (* i_begin: f_home at k = mstart s is g_home of the full disk, whose hstart is mstart s *)
    destruct GF as [_ Xs _ _ Xh _]. rewrite Hip in *. destruct Xs as [Xs|[=]]. split; [|split].
    + refine (Build_vinv _ Vo Vl _ Va Vb Vp Ve Vn). simpl. lia.
    + intros c Hc. destruct (G c Hc) as [Ge Gs Gl Gd Gh Gdh]. rewrite Hip in Gs. destruct Gs as [Gs|[=]].
      refine (Build_good _ _ Ge (or_introl Gs) Gl Gd Gh _). intros e [=].
    + refine (finv_intro _ _ eq_refl _ Fs _ Fhe); simpl; [|intros e [=]].
      intros e k [= <- <-]. rewrite <- Xs. exact Xh.
  - (* i_write: in a crash image the write lands on a home block that recovery overwrites, its address being in the
       segment [hstart, diskEnd); in the full disk position k is installed *)
    rewrite Hip in *. split; [|split].
    + refine (Build_vinv _ Vo Vl _ Va Vb Vp Ve Vn). simpl. lia.
    + apply crash_issue. intros c Hc. destruct (G c Hc) as [Ge Gs Gl Gd Gh Gdh]. rewrite Hip in Gs.
      destruct Gs as [Gs|[=]]. split.
      * refine (Build_good _ _ Ge (or_introl Gs) Gl Gd Gh _). intros e' [=].
      * refine (Build_good _ _ Ge (or_introl Gs) Gl Gd _ _); simpl; [|intros e' [=]].
        intros a. unfold mupd. destruct (Nat.eqb_spec a (fst (pos (flog s) k))) as [->|Na]; [right|apply Gh].
        rewrite Gs. apply in_seg_pos; lia.
    + refine (finv_intro _ _ (apply_wrs_snoc _ _ _) _ Fs _ Fhe); simpl; [|intros e' [=]].
      intros e' k' [= <- <-] a. rewrite firstn_S_pos, replay_snoc by lia. unfold mupd.
      destruct (Nat.eqb_spec a (fst (pos (flog s) k))) as [->|Na]; [now left|].
      destruct (Fh e k eq_refl a) as [?|H]; [now left|right].
      rewrite (seg_cons (flog s) k (diskEnd s)) in H by lia. destruct H as [<-|H]; [now destruct Na|exact H].
  - (* i_bar1: the home writes issued since i_begin are durable *)
    destruct GF as [Ge Gs Gl Gd Gh Gdh]. rewrite Hip in *. destruct Gs as [Gs|[=]]. split; [|split].
    + refine (Build_vinv _ Vo Vl _ Va Vb Vp Ve Vn). simpl. lia.
    + intros c ->%crash_nil. refine (Build_good _ _ Ge (or_introl Gs) Gl Gd Gh _).
      intros e' [= <-]. exact (Fh e e eq_refl).
    + refine (finv_intro _ _ eq_refl _ Fs _ Fhe); [intros e' k' [=]|intros e' [=]].
  - (* i_hdr: an image with the new header starts at e, up to where the home blocks are installed *)
    rewrite Hip in *. split; [now constructor|split].
    + apply crash_issue. intros c Hc. destruct (G c Hc) as [Ge Gs Gl Gd Gh Gdh]. unfold iend in *.
      rewrite Hip in *. destruct Gs as [Gs|[=]]. split.
      * exact (Build_good _ _ Ge (or_introl Gs) Gl Gd Gh Gdh).
      * refine (Build_good _ _ Ge (or_intror eq_refl) _ Gd _ Gdh); simpl.
        -- intros p Hp1 Hp2. apply Gl; lia.
        -- exact (Gdh e eq_refl).
    + refine (finv_intro _ _ (apply_wrs_snoc _ _ _) _ Fs _ Fhe); simpl; [intros e' k' [=]|now intros e' [= <-]].
  - (* i_bar2: mstart advances to e *)
    destruct GF as [Ge Gs Gl Gd Gh Gdh]. rewrite Hip in *. split; [|split].
    + refine (Build_vinv _ _ _ I _ Vb Vp Ve Vn); unfold written, lend in *; simpl; [lia|lia|].
      intros p Hp1 Hp2. apply Va; lia.
    + intros c ->%crash_nil. refine (Build_good _ _ Ge (or_introl (Fhs e eq_refl)) Gl Gd Gh _). intros e' [=].
    + refine (finv_intro _ _ eq_refl _ Fs _ Fhe); [intros e' k' [=]|intros e' [=]].
Qed.

Inductive reach : st -> Prop :=
| r_init : reach init
| r_step s s' : reach s -> step s s' -> reach s'.

Lemma reach_inv s : reach s -> Inv s.
Proof. induction 1; [apply inv_init|eapply inv_step; eauto]. Qed.

Lemma recovered_log_is_seg s c : vinv s -> good s c ->
  recovered_log c = seg (flog s) (hstart c) (hend c).
Proof.
  intros V G. pose proof (good_bounds s c V G) as B. destruct V as [Vo _ _ _ _ _ _ _]. destruct G as [_ _ Gl _ _ _].
  rewrite seg_map by lia. unfold recovered_log. apply map_ext_in. intros p Hp. apply in_seq in Hp.
  destruct (Gl p) as [A1 A2]; [lia|lia|]. rewrite A1, A2. symmetry. apply surjective_pairing.
Qed.

(* Whatever the crash point and whichever un-barriered writes are lost, recovery
   yields the initial home contents with a prefix of the appended transactions applied;
   that prefix contains everything the logger has acknowledged (diskEnd). *)
Theorem crash_prefix_inv s c :
  Inv s -> crash_img (dur s) (pend s) c ->
  exists k, In (hend c, k) (bnd s) /\ k <= length (txns s) /\ diskEnd s <= hend c /\
            meq (recover c) (apply_txns (firstn k (txns s)) base0).
Proof.
  intros (V & G & _) Hc. specialize (G c Hc).
  pose proof (good_bounds s c V G) as B. pose proof (recovered_log_is_seg s c V G) as RL.
  destruct V as [_ _ _ _ Vb Vp _ _]. destruct G as [Ge _ _ _ Gh _].
  assert (Hb: exists k, In (hend c, k) (bnd s)).
  { destruct Vp as (A & _ & C). destruct Ge as [->|E]; [exact A|]. unfold lend in C. now rewrite E in C. }
  destruct Hb as (k & Hk). exists k. destruct (Vb _ _ Hk) as (B1 & B2 & B3).
  split; [exact Hk|]. split; [exact B2|]. split; [lia|].
  (* the home blocks of c may differ from the log prefix up to hstart c only at addresses that the
     recovered log, positions [hstart c, hend c), writes again *)
  unfold recover. rewrite RL. eapply meq_trans; [|exact B3].
  rewrite (firstn_seg (flog s) (hstart c) (hend c)), replay_app by lia.
  intros x. apply replay_cover. intros Hx. destruct (Gh x) as [E|Hin]; [exact E|]. exfalso. apply Hx.
  apply (seg_mono_in _ _ (diskEnd s)); [lia|exact Hin].
Qed.

Theorem wal_crash_prefix s c :
  reach s -> crash_img (dur s) (pend s) c ->
  exists k, In (hend c, k) (bnd s) /\ k <= length (txns s) /\ diskEnd s <= hend c /\
            meq (recover c) (apply_txns (firstn k (txns s)) base0).
Proof. intros Hr. apply crash_prefix_inv. now apply reach_inv. Qed.

Inductive steps : st -> st -> Prop :=
| ss_refl s : steps s s
| ss_step s s' s'' : steps s s' -> step s' s'' -> steps s s''.

Lemma steps_pres (P:st -> Prop) : (forall s s', P s -> step s s' -> P s') -> forall s s', P s -> steps s s' -> P s'.
Proof. intros HP s s' Hs H. induction H as [|a b c0 _ IH Hst]; [exact Hs|]. exact (HP _ _ (IH Hs) Hst). Qed.

Definition append_st (s:st) (t:txn) : st :=
  {| dur := dur s; pend := pend s;
     flog := firstn (mutabl s) (flog s) ++ memwrite (skipn (mutabl s) (flog s)) t;
     mstart := mstart s; diskEnd := diskEnd s; mutabl := mutabl s; amem := amem s; lp := lp s; ip := ip s;
     txns := txns s ++ [t]; bnd := bnd s |}.

(* boundaries recorded after the transaction's end position count at least n transactions *)
Definition covers (e n:nat) (s:st) : Prop :=
  n <= length (txns s) /\ forall p k, In (p,k) (bnd s) -> e <= p -> n <= k.

Lemma covers_step e n s s' : covers e n s -> step s s' -> covers e n s'.
Proof.
  intros [C1 C2] Hs. destruct Hs; unfold covers; simpl; try (split; assumption).
  - split; [rewrite app_length; lia|exact C2].
  - split; [exact C1|]. intros p k [Hin|[[= <- <-]|[]]]%in_app_or Hp; [now apply (C2 p k)|exact C1].
Qed.

(* once diskEnd has passed e, every crash image recovers at least the n transactions that e covers *)
Theorem covers_durable e n s c : Inv s -> covers e n s -> e <= diskEnd s -> crash_img (dur s) (pend s) c ->
  exists k, n <= k /\ k <= length (txns s) /\ meq (recover c) (apply_txns (firstn k (txns s)) base0).
Proof.
  intros HI [_ C] He Hc. destruct (crash_prefix_inv s c HI Hc) as (k & Hk & Hk2 & Hde & Hm).
  exists k. split; [apply (C _ _ Hk); lia|now split].
Qed.

(* Once the logger's diskEnd has passed the end position of a (non-empty) transaction,
   every crash image recovers a prefix that contains it. *)
Theorem wal_durable s0 t s c :
  Inv s0 -> t <> [] -> steps (append_st s0 t) s ->
  length (flog (append_st s0 t)) <= diskEnd s ->
  crash_img (dur s) (pend s) c ->
  exists k, length (txns s0) + 1 <= k /\ k <= length (txns s) /\
            meq (recover c) (apply_txns (firstn k (txns s)) base0).
Proof.
  intros HI Ht Hst Hflushed Hc.
  assert (HI1: Inv (append_st s0 t)) by (apply (inv_step s0); [exact HI|apply s_append]).
  apply (covers_durable (length (flog (append_st s0 t))) _ s); [exact (steps_pres _ inv_step _ _ HI1 Hst)| |exact Hflushed|exact Hc].
  refine (steps_pres _ (covers_step _ _) _ _ _ Hst).
  (* the end position of a non-empty t lies beyond mutabl s0, hence beyond every boundary of s0 *)
  split; [simpl; rewrite app_length; simpl; lia|]. intros p k Hin Hp. exfalso.
  destruct HI as ([Vo _ _ _ Vb _ _ _] & _ & _). destruct (Vb p k Hin) as (A & _ & _).
  simpl in Hp. rewrite app_length, firstn_length in Hp.
  destruct (memwrite_length t (skipn (mutabl s0) (flog s0))) as [_ M]. specialize (M Ht). lia.
Qed.

(* restart: the state the WAL rebuilds from a crashed disk *)
Definition recovered_st (s:st) (c:dsk) (k:nat) : st :=
  {| dur := c; pend := [];
     flog := firstn (hend c) (flog s);
     mstart := hstart c; diskEnd := hend c; mutabl := hend c;
     amem := haddr c; lp := LIdle; ip := IIdle;
     txns := firstn k (txns s); bnd := [(hend c, k)] |}.

Theorem recovered_inv s c k :
  Inv s -> crash_img (dur s) (pend s) c -> In (hend c, k) (bnd s) -> Inv (recovered_st s c k).
Proof.
  intros (V & G & _) Hc Hk. specialize (G c Hc). pose proof (good_bounds s c V G) as B.
  destruct V as [Vo Vl Vi Va Vb Vp Ve Vn]. destruct G as [Ge Gs Gl Gd Gh Gdh].
  destruct (Vb _ _ Hk) as (B1 & B2 & B3).
  assert (Hlen: length (firstn (hend c) (flog s)) = hend c) by (rewrite firstn_length; lia).
  split; [|split].
  - constructor; unfold written, lend; simpl.
    + lia.
    + lia.
    + exact I.
    + intros p Hp1 Hp2. rewrite pos_firstn by lia. apply Gl; lia.
    + intros p k' [[= <- <-]|[]]. split; [lia|]. split; [rewrite firstn_length; lia|].
      now rewrite !firstn_firstn, !Nat.min_id.
    + split; [|split]; exists k; now left.
    + exact B3.
    + rewrite skipn_all2 by lia. constructor.
  - intros c' ->%crash_nil. constructor; unfold dwritten, iend; simpl.
    + now left.
    + now left.
    + intros p Hp1 Hp2. rewrite pos_firstn by lia. apply Gl; lia.
    + intros; lia.
    + intros a. rewrite firstn_firstn, Nat.min_l, seg_firstn by lia. destruct (Gh a) as [E|Hin]; [now left|right].
      apply (seg_mono_in _ _ (diskEnd s)); [lia|exact Hin].
    + intros e [=].
  - constructor; simpl; intros; discriminate.
Qed.
End Wal.
Print Assumptions recovered_inv.
