(* Proofs about IC (Model/IcacheModel.v): in every interleaving of transactions that lock, edit, log, commit and abort
   inodes, and of cache evictions, every cached copy of an inode that no transaction holds equals what is on disk -
   so what the running server answers from its cache is what a server restarted from the disk would answer - and
   an aborted transaction leaves the disk untouched and nothing of its edits in the cache. *)
From stdpp Require Import gmap.
From V Require Import Model.IcacheModel.

Section ICP.
Context {V : Type} `{EqDecision V}.
Variable dflt : V.
Notation icstate := (@icstate V).
Notation disk_val := (disk_val dflt).
Notation icstep := (icstep dflt).
Notation icruns := (icruns dflt).

Record icinv (s : icstate) : Prop := {
  (* an unlocked cached inode is the disk's *)
  ci_coh : forall i v, c_cache s !! i = Some v -> c_owner s !! i = None -> disk_val s i = v;
  (* only locked inodes have uncommitted journal buffers *)
  ci_buf : forall i v, c_wbuf s !! i = Some v -> c_owner s !! i <> None }.

Lemma icinv_init d : icinv (ic_init d).
Proof. split; simpl; intros i v H; rewrite lookup_empty in H; discriminate. Qed.

Lemma lookup_mine (s : icstate) t {A} (m : gmap N A) i :
  mine s t m !! i = if decide (c_owner s !! i = Some t) then m !! i else None.
Proof.
  unfold mine. rewrite map_filter_lookup. destruct (m !! i); simpl; [reflexivity|case_decide; reflexivity].
Qed.
Lemma lookup_not_mine (s : icstate) t {A} (m : gmap N A) i :
  not_mine s t m !! i = if decide (c_owner s !! i = Some t) then None else m !! i.
Proof.
  unfold not_mine. rewrite map_filter_lookup. destruct (m !! i); simpl; [|case_decide; reflexivity].
  case_option_guard; case_decide; simpl in *; congruence.
Qed.
Lemma lookup_disown (o : gmap N nat) t i :
  filter (fun p : N * nat => snd p <> t) o !! i = if decide (o !! i = Some t) then None else o !! i.
Proof.
  rewrite map_filter_lookup. destruct (o !! i) as [t'|]; simpl; [|reflexivity].
  case_option_guard; case_decide; simpl in *; congruence.
Qed.

Theorem icinv_step s o s' : icinv s -> icstep s o = Some s' -> icinv s'.
Proof.
  intros [Co Bu] E. destruct o as [t i|t i v|t i|t|t|i]; simpl in E.
  - (* lock *)
    destruct (c_owner s !! i) eqn:Eo; [discriminate|]. injection E as <-. split; simpl.
    + intros j v Hc [Ho Hne]%lookup_insert_None. apply Co; [|exact Ho].
      destruct (c_cache s !! i); [exact Hc|]. rewrite lookup_insert_ne in Hc by exact Hne. exact Hc.
    + intros j v Hb [Ho _]%lookup_insert_None. eapply Bu; eauto.
  - (* edit in place *)
    case_bool_decide as G; [|discriminate].
    injection E as <-. split; simpl; [|exact Bu].
    intros j w [[-> _]|[_ Hc]]%lookup_insert_Some Ho; [congruence|apply Co; assumption].
  - (* log *)
    case_bool_decide as G; [|discriminate].
    destruct (c_cache s !! i) as [v|] eqn:Ec; [|discriminate]. injection E as <-. split; simpl; [exact Co|].
    intros j w [[-> _]|[_ Hb]]%lookup_insert_Some; [congruence|eapply Bu; eauto].
  - (* commit *)
    case_bool_decide as G; [|discriminate].
    injection E as <-. split; simpl.
    + intros i v Hc Ho. rewrite lookup_disown in Ho. unfold IcacheModel.disk_val. simpl.
      pose proof (lookup_mine s t (c_wbuf s) i) as Hm. destruct (decide (c_owner s !! i = Some t)) as [Ht|Hn].
      * (* held by the committing transaction: clean, so logged as cached or never changed *)
        destruct (G i t Ht eq_refl v Hc) as [Hw|[Hw Hd]]; rewrite Hw in Hm.
        -- rewrite (lookup_union_Some_l _ _ _ _ Hm). reflexivity.
        -- rewrite (lookup_union_r _ _ _ Hm). exact Hd.
      * (* was unlocked: disk unchanged *)
        rewrite (lookup_union_r _ _ _ Hm). apply Co; assumption.
    + intros i v Hb Ho. rewrite lookup_not_mine in Hb. rewrite lookup_disown in Ho.
      destruct (decide (c_owner s !! i = Some t)); [discriminate|]. eapply Bu; eauto.
  - (* abort: what t held is gone from cache and buffers, the rest is as it was *)
    injection E as <-. split; simpl; intros i v Hc; rewrite lookup_not_mine in Hc; rewrite lookup_disown;
      destruct (decide (c_owner s !! i = Some t)); try discriminate; eauto.
  - (* evict *)
    destruct (c_owner s !! i) eqn:Eo; [discriminate|]. injection E as <-. split; simpl; [|exact Bu].
    intros j v [_ Hc]%lookup_delete_Some Ho. apply Co; assumption.
Qed.

Lemma icinv_runs os : forall s, icinv s -> icinv (icruns s os).
Proof.
  induction os as [|o os IH]; intros s H; simpl; [exact H|].
  apply IH. unfold icstep'. destruct (icstep s o) eqn:E; [eapply icinv_step; eauto|exact H].
Qed.
Theorem icinv_reachable d os : icinv (icruns (ic_init d) os).
Proof. apply icinv_runs, icinv_init. Qed.

(* what a server answers for an inode nobody holds: its cached copy when there is one, else the disk's.
   A restarted server has an empty cache: same disk, same answers. *)
Definition served (s : icstate) (i : N) : V := match c_cache s !! i with Some v => v | None => disk_val s i end.
Lemma served_restarted s i : icinv s -> c_owner s !! i = None -> served s i = served (ic_init (c_disk s)) i.
Proof.
  intros I Ho. unfold served at 2. simpl. rewrite lookup_empty.
  unfold served. destruct (c_cache s !! i) as [v|] eqn:Ec; [|reflexivity].
  symmetry. exact (ci_coh _ I _ _ Ec Ho).
Qed.
Theorem running_equals_restarted d os i :
  let s := icruns (ic_init d) os in
  c_owner s !! i = None -> served s i = served (ic_init (c_disk s)) i.
Proof. apply served_restarted, icinv_reachable. Qed.

(* abort: disk untouched; nothing the transaction held stays cached or buffered; everything else is as it was *)
Theorem ic_abort_effect s t s' : icstep s (IAbort t) = Some s' ->
  c_disk s' = c_disk s /\
  (forall i, c_owner s !! i = Some t -> c_cache s' !! i = None /\ c_wbuf s' !! i = None /\ c_owner s' !! i = None) /\
  (forall i, c_owner s !! i <> Some t -> c_cache s' !! i = c_cache s !! i /\ c_wbuf s' !! i = c_wbuf s !! i /\ c_owner s' !! i = c_owner s !! i).
Proof.
  intros E. simpl in E. injection E as <-. simpl. split; [reflexivity|]. split; intros i Ho.
  - rewrite !lookup_not_mine, lookup_disown. destruct (decide (c_owner s !! i = Some t)); [auto|contradiction].
  - rewrite !lookup_not_mine, lookup_disown. destruct (decide (c_owner s !! i = Some t)); [contradiction|auto].
Qed.
End ICP.
