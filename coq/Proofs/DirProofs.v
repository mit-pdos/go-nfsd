(* Proofs about DM (Model/DirModel.v): the name cache stays coherent with the slots, the directory layer implements
   a finite map from names to inode numbers, and — what the enumeration theorems of Proofs/Paging.v assume —
   a directory never shrinks and an entry stays in its slot for as long as it exists. *)
From stdpp Require Import gmap.
From V Require Import Model.Lib Model.DirModel.
From V Require Proofs.Paging.
Local Open Scope nat_scope.

Definition at_ (l : dslots) (k : nat) (e : name * N) : Prop := nth_error l k = Some (Some e).
Definition absent (l : dslots) (n : name) : Prop := forall i k, ~ at_ l k (n, i).
(* a name occupies at most one slot *)
Definition uniq (l : dslots) : Prop := forall k1 k2 n i1 i2, at_ l k1 (n, i1) -> at_ l k2 (n, i2) -> k1 = k2.

Record coh (st : dstate) : Prop := {
  coh_uniq : uniq (d_slots st);
  coh_cache : forall c, d_cache st = Some c ->
              forall n i k, dc_map c !! n = Some (i, k) <-> at_ (d_slots st) k (n, i) }.

(* consecutive states of one directory *)
Definition step_ok (a b : dslots) : Prop :=
  length a <= length b /\ forall k e, at_ a k e -> at_ b k e \/ forall j, ~ at_ b j e.

Lemma step_ok_refl l : step_ok l l.
Proof. split; [lia|]. intros k e H. now left. Qed.

Lemma at_lt l k e : at_ l k e -> k < length l.
Proof. intros H. apply nth_error_Some. unfold at_ in H. rewrite H. discriminate. Qed.

Lemma at_snoc l s k e : at_ (l ++ [s]) k e <-> (k = length l /\ s = Some e) \/ at_ l k e.
Proof.
  unfold at_. destruct (Nat.lt_trichotomy k (length l)) as [Hk|[->|Hk]].
  - rewrite nth_error_app1 by exact Hk. split; [auto|]. intros [[-> _]|H]; [lia|exact H].
  - rewrite nth_error_app2, Nat.sub_diag, (proj2 (nth_error_None l (length l))) by lia. simpl.
    split; [intros [= ->]; auto|]. intros [[_ ->]|H]; [reflexivity|discriminate].
  - rewrite (proj2 (nth_error_None (l ++ [s]) k)), (proj2 (nth_error_None l k)) by (rewrite ?app_length; simpl; lia).
    split; [discriminate|]. intros [[-> _]|H]; [lia|discriminate].
Qed.

Lemma uniq_sub l l' : (forall k e, at_ l' k e -> at_ l k e) -> uniq l -> uniq l'.
Proof. intros S U k1 k2 n i1 i2 A1 A2. eapply U; apply S; eassumption. Qed.

(* what coh asks of a cache: it holds exactly the occupied slots *)
Definition cached (m : gmap name (N * nat)) (l : dslots) : Prop :=
  forall n i k, m !! n = Some (i, k) <-> at_ l k (n, i).

Lemma coh_some l c : uniq l -> cached (dc_map c) l -> coh {| d_slots := l; d_cache := Some c |}.
Proof. intros U C. split; [exact U|]. intros c' [= <-]. exact C. Qed.

Lemma nth_upd_eq {A} (l : list A) : forall k x, k < length l -> nth_error (upd_nth l k x) k = Some x.
Proof. induction l as [|y r IH]; intros k x Hk; simpl in *; [lia|]. destruct k; [reflexivity|]. simpl. apply IH. lia. Qed.
Lemma nth_upd_ne {A} (l : list A) : forall k j x, j <> k -> nth_error (upd_nth l k x) j = nth_error l j.
Proof.
  induction l as [|y r IH]; intros k j x Hj; simpl; [reflexivity|].
  destruct k; destruct j; simpl; try reflexivity; try lia. apply IH. lia.
Qed.
Lemma upd_length {A} (l : list A) : forall k x, length (upd_nth l k x) = length l.
Proof. induction l as [|y r IH]; intros k x; simpl; [reflexivity|]. destruct k; simpl; [reflexivity|]. now rewrite IH. Qed.

(* Dcache.Add with the slot write it goes with: l' is l with e put into slot off, which held no entry or is the
   slot after the last.  mkDcache and AddName both keep the cache exact by this step. *)
Definition put (l l' : dslots) (off : nat) (e : name * N) : Prop :=
  forall k e', at_ l' k e' <-> (k = off /\ e' = e) \/ at_ l k e'.

Lemma put_snoc l e : put l (l ++ [Some e]) (length l) e.
Proof. intros k e'. rewrite at_snoc. split; (intros [[-> H]|H]; [left; split; congruence|auto]). Qed.

Lemma write_slot_at l off e : (off = length l \/ nth_error l off = Some None) -> put l (write_slot l off (Some e)) off e.
Proof.
  intros Hoff. unfold write_slot. destruct (Nat.ltb_spec off (length l)) as [Hlt|Hge].
  - destruct Hoff as [->|Hfree]; [lia|]. intros k e'. unfold at_. destruct (Nat.eq_dec k off) as [->|Hne].
    + rewrite nth_upd_eq, Hfree by exact Hlt. split; [intros [= ->]; auto|]. intros [[_ ->]|H]; [reflexivity|discriminate].
    + rewrite nth_upd_ne by exact Hne. split; [auto|]. intros [[-> _]|H]; [contradiction|exact H].
  - destruct Hoff as [->|H]; [apply put_snoc|]. rewrite (proj2 (nth_error_None _ _) Hge) in H. discriminate.
Qed.
Lemma write_slot_length l off s : length l <= length (write_slot l off s).
Proof. unfold write_slot. destruct (off <? length l); cbv iota; [rewrite upd_length|rewrite app_length]; lia. Qed.

Lemma put_uniq l l' off n i : put l l' off (n, i) -> absent l n -> uniq l -> uniq l'.
Proof.
  intros W Ab U k1 k2 n' i1 i2 A1 A2. apply W in A1, A2. destruct A1 as [[-> E1]|A1], A2 as [[-> E2]|A2].
  - reflexivity.
  - injection E1 as -> ->. destruct (Ab _ _ A2).
  - injection E2 as -> ->. destruct (Ab _ _ A1).
  - eapply U; eassumption.
Qed.
Lemma put_cached m l l' off n i : put l l' off (n, i) -> absent l n -> cached m l -> cached (<[n := (i, off)]> m) l'.
Proof.
  intros W Ab C n' i' k. rewrite (W k (n', i')). destruct (decide (n' = n)) as [->|Hne].
  - rewrite lookup_insert. split.
    + intros [= -> ->]. left. auto.
    + intros [[-> [= ->]]|A]; [reflexivity|destruct (Ab _ _ A)].
  - rewrite lookup_insert_ne, (C n' i' k) by congruence. split; [auto|]. intros [[_ [= Hn _]]|A]; [congruence|exact A].
Qed.

(* Dcache.Del with the slot write it goes with: clearing the slot of a name removes the entries of that name *)
Lemma clear_slot_at l off n i : uniq l -> at_ l off (n, i) ->
  forall k e, at_ (upd_nth l off None) k e <-> at_ l k e /\ fst e <> n.
Proof.
  intros U A0 k e. unfold at_. destruct (Nat.eq_dec k off) as [->|Hne].
  - rewrite nth_upd_eq by (eapply at_lt; exact A0). split; [discriminate|]. intros [A Hn]. destruct Hn.
    unfold at_ in A0. assert (e = (n, i)) as -> by congruence. reflexivity.
  - rewrite nth_upd_ne by exact Hne. split; [|intros [A _]; exact A]. intros A. split; [exact A|].
    destruct e as [n' i']. intros [= ->]. apply Hne. eapply U; [exact A|exact A0].
Qed.
Lemma clear_cached m l off n i : uniq l -> at_ l off (n, i) -> cached m l -> cached (delete n m) (upd_nth l off None).
Proof.
  intros U A0 C n' i' k. rewrite (clear_slot_at _ _ _ _ U A0). simpl. destruct (decide (n' = n)) as [->|Hne].
  - rewrite lookup_delete. split; [discriminate|]. intros [_ Hn]. destruct (Hn eq_refl).
  - rewrite lookup_delete_ne, (C n' i' k) by congruence. split; [auto|]. intros [A _]. exact A.
Qed.

(* mkDcache: one Dcache.Add per occupied slot, from the first slot to the last *)
Lemma cache_of_app a b base m : cache_of (a ++ b) base m = cache_of b (base + length a) (cache_of a base m).
Proof.
  revert base m. induction a as [|[[n i]|] a IH]; intros base m; simpl; [now rewrite Nat.add_0_r| |]; rewrite IH; f_equal; lia.
Qed.
Lemma mk_dcache_cached l : uniq l -> cached (dc_map (mk_dcache l)) l.
Proof.
  unfold mk_dcache; simpl. induction l as [|s l IH] using rev_ind; intros U.
  - intros n i k. simpl. rewrite lookup_empty. split; [discriminate|]. destruct k; discriminate.
  - assert (C : cached (cache_of l 0 ∅) l) by (apply IH; revert U; apply uniq_sub; intros k e A; apply at_snoc; auto).
    rewrite cache_of_app. destruct s as [[n i]|]; simpl.
    + eapply put_cached; [apply put_snoc| |exact C]. intros i' k A.
      assert (k = length l) by (eapply U; apply at_snoc; [right; exact A|left; auto]). apply at_lt in A. lia.
    + intros n i k. rewrite at_snoc, (C n i k). split; [auto|]. intros [[_ [=]]|A]. exact A.
Qed.

(* after `if dip.Dcache == nil { mkDcache(dip, op) }` there is a cache, and it is exact *)
Lemma ensure_spec st : coh st ->
  exists c, ensure st = ({| d_slots := d_slots st; d_cache := Some c |}, c) /\ cached (dc_map c) (d_slots st).
Proof.
  intros [U C]. unfold ensure. destruct st as [l [c|]]; simpl in *; eexists; (split; [reflexivity|]).
  - exact (C c eq_refl).
  - apply mk_dcache_cached, U.
Qed.

(* LookupName: the answer is what the slots say *)
Theorem dm_lookup_spec st n st' r : coh st -> dm_lookup st n = (st', r) ->
  coh st' /\ d_slots st' = d_slots st /\
  (forall i k, r = Some (i, k) <-> at_ (d_slots st) k (n, i)).
Proof.
  intros H. unfold dm_lookup. destruct (ensure_spec st H) as (c & -> & C). intros [= <- <-].
  split; [apply coh_some; [apply H|exact C]|]. split; [reflexivity|]. intros i k. apply C.
Qed.

Lemma first_free_spec l : forall idx from k, first_free l idx from = Some k ->
  exists k', k = idx + k' /\ nth_error l k' = Some None.
Proof.
  induction l as [|[e|] r IH]; intros idx from k H; simpl in H; [discriminate| |].
  - destruct (IH _ _ _ H) as (k' & -> & H'). exists (S k'). split; [lia|exact H'].
  - destruct (from <=? idx).
    + injection H as <-. exists 0. split; [lia|reflexivity].
    + destruct (IH _ _ _ H) as (k' & -> & H'). exists (S k'). split; [lia|exact H'].
Qed.
Lemma add_slot_spec l last : add_slot l last = length l \/ nth_error l (add_slot l last) = Some None.
Proof.
  unfold add_slot. destruct (first_free l 0 last) as [[|k]|] eqn:E; auto.
  right. destruct (first_free_spec _ _ _ _ E) as (k' & -> & H). exact H.
Qed.

Theorem add_name_ok st i n room st' : coh st -> absent (d_slots st) n ->
  add_name st i n room = (st', true) ->
  coh st' /\ (lenN n <= DM_MAXNAMELEN)%N /\
  (exists k, at_ (d_slots st') k (n, i)) /\
  (forall k e, fst e <> n -> (at_ (d_slots st') k e <-> at_ (d_slots st) k e)) /\
  step_ok (d_slots st) (d_slots st').
Proof.
  intros H Ab. unfold add_name. destruct (ensure_spec st H) as (c & -> & C).
  destruct (N.ltb_spec DM_MAXNAMELEN (lenN n)) as [Hlen|Hlen]; [discriminate|]. simpl.
  destruct (_ && _); [discriminate|]. intros [= <-]. simpl.
  pose proof (write_slot_at _ _ (n, i) (add_slot_spec (d_slots st) (dc_last c))) as W.
  split; [apply coh_some; [eapply put_uniq|eapply put_cached]; eauto using coh_uniq|]. split; [exact Hlen|]. split; [|split].
  - eexists. apply W. left. auto.
  - intros k e Hne. rewrite (W k e). split; [|auto]. intros [[_ ->]|A]; [simpl in Hne; congruence|exact A].
  - split; [apply write_slot_length|]. intros k e A. left. apply W. right. exact A.
Qed.

Theorem add_name_fail st i n room st' : coh st -> add_name st i n room = (st', false) ->
  coh st' /\ d_slots st' = d_slots st.
Proof.
  intros H. unfold add_name. destruct (ensure_spec st H) as (c & -> & C).
  destruct (DM_MAXNAMELEN <? lenN n)%N; [intros [= <-]; auto|]. simpl.
  destruct (_ && _); intros [= <-]. split; [apply coh_some; [apply H|exact C]|reflexivity].
Qed.
Theorem add_name_succeeds st i n : (lenN n <= DM_MAXNAMELEN)%N -> snd (add_name st i n true) = true.
Proof.
  intros Hlen. unfold add_name. destruct (N.ltb_spec DM_MAXNAMELEN (lenN n)); [lia|].
  destruct (ensure st) as [st1 c]. rewrite andb_false_r. reflexivity.
Qed.

Theorem rem_name_ok st n st' : coh st -> rem_name st n = (st', true) ->
  coh st' /\ absent (d_slots st') n /\ ~ absent (d_slots st) n /\
  (forall k e, fst e <> n -> (at_ (d_slots st') k e <-> at_ (d_slots st) k e)) /\
  step_ok (d_slots st) (d_slots st').
Proof.
  intros H. unfold rem_name. destruct (ensure_spec st H) as (c & -> & C).
  destruct (DM_MAXNAMELEN <? lenN n)%N; [discriminate|]. simpl.
  destruct (dc_map c !! n) as [[i off]|] eqn:A0; [|discriminate]. intros [= <-]. simpl.
  apply C in A0. pose proof (coh_uniq _ H) as U. pose proof (clear_slot_at _ _ _ _ U A0) as W.
  split; [|split; [|split; [|split]]].
  - apply coh_some; [|apply (clear_cached _ _ _ _ _ U A0 C)]. revert U. apply uniq_sub. intros k e A. apply W, A.
  - intros i' k A. apply W in A as [_ Hn]. exact (Hn eq_refl).
  - intros Ha. exact (Ha _ _ A0).
  - intros k e Hne. rewrite W. split; [intros [A _]; exact A|auto].
  - split; [rewrite upd_length; lia|]. intros k e A. destruct (decide (fst e = n)) as [E|E].
    + right. intros j A'. apply W in A' as [_ Hn]. exact (Hn E).
    + left. apply W. auto.
Qed.

Theorem rem_name_fail st n st' : coh st -> rem_name st n = (st', false) ->
  coh st' /\ d_slots st' = d_slots st /\ ((lenN n <= DM_MAXNAMELEN)%N -> absent (d_slots st) n).
Proof.
  intros H. unfold rem_name. destruct (ensure_spec st H) as (c & -> & C).
  destruct (N.ltb_spec DM_MAXNAMELEN (lenN n)) as [Hl|Hl].
  - intros [= <-]. split; [exact H|]. split; [reflexivity|]. lia.
  - simpl. destruct (dc_map c !! n) as [[i off]|] eqn:El; intros [= <-].
    split; [apply coh_some; [apply H|exact C]|]. split; [reflexivity|]. intros _ i k A. apply C in A. congruence.
Qed.

Lemma drop_cache_coh st : coh st -> coh (drop_cache st).
Proof. intros [U C]. split; [exact U|]. simpl. intros c [=]. Qed.

(* the callers (nfs_ops.go) look a name up before adding it; a failed operation may also lose the cache (abort) *)
Inductive dop := DLookup (n : name) | DAdd (i : N) (n : name) (room : bool) | DRem (n : name) | DDrop.
Definition dstep (st : dstate) (o : dop) : dstate :=
  match o with
  | DLookup n => fst (dm_lookup st n)
  | DAdd i n room => fst (dm_addx st i n room)
  | DRem n => fst (rem_name st n)
  | DDrop => drop_cache st
  end.

Theorem dstep_ok st o : coh st -> coh (dstep st o) /\ step_ok (d_slots st) (d_slots (dstep st o)).
Proof.
  intros H. destruct o as [n|i n room|n|]; simpl.
  - destruct (dm_lookup st n) as [st' r] eqn:E; simpl.
    apply dm_lookup_spec in E as (H' & -> & _); auto using step_ok_refl.
  - unfold dm_addx. destruct (dm_lookup st n) as [st1 r] eqn:E.
    apply dm_lookup_spec in E as (H1 & Hs & R); [|exact H]. rewrite <- Hs in *.
    destruct r as [r|]; simpl; [auto using step_ok_refl|].
    assert (Ab : absent (d_slots st1) n) by (intros i' k A; apply R in A; discriminate).
    destruct (add_name st1 i n room) as [st2 [|]] eqn:E2; simpl.
    + apply add_name_ok in E2 as (H2 & _ & _ & _ & St); auto.
    + apply add_name_fail in E2 as (H2 & ->); auto using step_ok_refl.
  - destruct (rem_name st n) as [st' [|]] eqn:E; simpl.
    + apply rem_name_ok in E as (H' & _ & _ & _ & St); auto.
    + apply rem_name_fail in E as (H' & -> & _); auto using step_ok_refl.
  - split; [apply drop_cache_coh; exact H|apply step_ok_refl].
Qed.

Definition druns (st : dstate) (os : list dop) : dstate := fold_left dstep os st.
Theorem druns_coh os : forall st, coh st -> coh (druns st os).
Proof. induction os as [|o os IH]; intros st H; simpl; [exact H|]. apply IH. apply dstep_ok. exact H. Qed.

(* a freshly initialised directory: ".", ".." and no cache *)
Definition dir_init (self parent : N) : dstate := {| d_slots := [Some (dot, self); Some (dotdot, parent)]; d_cache := None |}.
Lemma dir_init_coh self parent : coh (dir_init self parent).
Proof.
  split; [|simpl; intros c [=]]. simpl.
  (* "." put after no slot, ".." after that one: the names differ *)
  apply (put_uniq [Some (dot, self)] _ 1 dotdot parent (put_snoc _ _)); [intros i [|[|k]] A; discriminate A|].
  apply (put_uniq [] _ 0 dot self (put_snoc _ _)); [intros i [|k] A; discriminate A|].
  intros [|k1] k2 n i1 i2 A; discriminate A.
Qed.

(* an entry that keeps existing never moves (the hypothesis of Paging.enum_exactly_once) *)
Theorem entry_never_moves (st : nat -> dslots) :
  (forall t, step_ok (st t) (st (S t))) ->
  forall t0 k e, at_ (st t0) k e -> (forall t, t0 <= t -> exists j, at_ (st t) j e) ->
  forall d, at_ (st (t0 + d)) k e.
Proof.
  intros St t0 k e A0 P d. induction d as [|d IH]; [now rewrite Nat.add_0_r|].
  rewrite Nat.add_succ_r. destruct (St (t0 + d)) as [_ Sk]. destruct (Sk _ _ IH) as [A|Ng]; [exact A|].
  destruct (P (S (t0 + d))) as [j Aj]; [lia|]. exfalso. exact (Ng _ Aj).
Qed.

(* DM under the paging theorems: the hypotheses of Paging.enum_exactly_once follow from per-step step_ok *)
Theorem listed_once_from_dir_steps (cost dcost pcost : name * N -> N) (st : nat -> dslots) (tm : nat -> nat)
    (lims : nat -> Paging.limits) :
  (forall t, step_ok (st t) (st (S t))) ->          (* st t: the directory after t operations of any clients *)
  (forall k, tm k <= tm (S k)) ->                   (* tm k: when the k-th READDIR/READDIRPLUS of the enumeration is served *)
  forall fuel i e, at_ (st (tm 0)) i e ->
  (forall t, tm 0 <= t -> exists j, at_ (st t) j e) ->   (* the entry exists throughout *)
  snd (Paging.sv_enum (name * N) cost dcost pcost (fun k => st (tm k)) lims fuel 0 0) = true ->
  Paging.count_idx (name * N) i (concat (fst (Paging.sv_enum (name * N) cost dcost pcost (fun k => st (tm k)) lims fuel 0 0))) = 1 /\
  In (i, e) (concat (fst (Paging.sv_enum (name * N) cost dcost pcost (fun k => st (tm k)) lims fuel 0 0))).
Proof.
  intros St Tm fuel i e A0 P Fin. unfold Paging.sv_enum in *. apply Paging.enum_exactly_once.
  - intros k. apply (Paging.mono_steps (fun t => length (st t))); [intros t; apply St|apply Tm].
  - lia.
  - lia.
  - intros j. simpl. replace (tm j) with (tm 0 + (tm j - tm 0)) by (pose proof (Paging.mono_steps tm Tm 0 j); lia).
    apply entry_never_moves; assumption.
  - exact Fin.
Qed.

(* the executable form of step_ok, run on the implementation's directories.  It is sound, and complete: it
   accepts every pair of states that satisfies step_ok, so it cannot raise an alarm on a directory history the
   theorems allow. *)
Lemma slot_eqb_eq a b : slot_eqb a b = true <-> a = b.
Proof.
  destruct a as [n i], b as [n' i']. unfold slot_eqb, bytes_eqb. simpl. rewrite andb_true_iff, bool_decide_eq_true, N.eqb_eq.
  split; [intros [-> ->]; reflexivity|intros [= -> ->]; auto].
Qed.
Lemma has_entry_iff l e : has_entry l e = true <-> exists j, at_ l j e.
Proof.
  unfold has_entry. rewrite existsb_exists. split.
  - intros ([e'|] & Hin & Hs); [|discriminate]. apply slot_eqb_eq in Hs as <-. exact (In_nth_error _ _ Hin).
  - intros [j A]. exists (Some e). split; [exact (nth_error_In _ _ A)|]. apply slot_eqb_eq. reflexivity.
Qed.
Lemma has_entry_true l e : (exists j, at_ l j e) -> has_entry l e = true.
Proof. apply has_entry_iff. Qed.
Lemma has_entry_false l e : has_entry l e = false <-> forall j, ~ at_ l j e.
Proof. rewrite <- not_true_iff_false, has_entry_iff. split; [intros H j A; apply H; eauto|intros H [j A]; exact (H j A)]. Qed.

(* the test `stays` makes of an occupied slot of a against the head of what is left of b *)
Lemma stays_head b ball e :
  (match b with Some e' :: _ => slot_eqb e e' || negb (has_entry ball e) | _ => negb (has_entry ball e) end) = true
  <-> at_ b 0 e \/ forall j, ~ at_ ball j e.
Proof.
  assert (G : negb (has_entry ball e) = true <-> forall j, ~ at_ ball j e) by (rewrite negb_true_iff; apply has_entry_false).
  destruct b as [|[e'|] rb]; unfold at_; simpl.
  - rewrite G. split; [auto|]. intros [|]; [discriminate|assumption].
  - rewrite orb_true_iff, slot_eqb_eq, G. split; (intros [H|]; [left; congruence|auto]).
  - rewrite G. split; [auto|]. intros [|]; [discriminate|assumption].
Qed.
Lemma stays_iff a : forall b ball,
  stays a b ball = true <-> forall k e, at_ a k e -> at_ b k e \/ forall j, ~ at_ ball j e.
Proof.
  induction a as [|s ra IH]; intros b ball; [split; [intros _ [|k] e A; discriminate|reflexivity]|].
  (* an equation, not an equivalence: rewriting with it is plain *)
  assert (T : forall k e, at_ (tl b) k e = at_ b (S k) e) by (intros; destruct b; [destruct k|]; reflexivity).
  destruct s as [e0|]; simpl; rewrite ?andb_true_iff, IH, ?stays_head; split.
  - intros [H0 HS] [|k] e A; [injection A as <-; exact H0|]. rewrite <- T. apply HS, A.
  - intros H. split; [apply (H 0); reflexivity|]. intros k e A. rewrite T. apply (H (S k)), A.
  - intros HS [|k] e A; [discriminate|]. rewrite <- T. apply HS, A.
  - intros H k e A. rewrite T. apply (H (S k)), A.
Qed.
Theorem step_ok_b_iff a b : step_ok_b a b = true <-> step_ok a b.
Proof. unfold step_ok_b, step_ok. rewrite andb_true_iff, Nat.leb_le, stays_iff. reflexivity. Qed.
